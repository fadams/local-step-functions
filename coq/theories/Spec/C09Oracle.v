(* What check_C09 decides on GetExecutionHistory responses and on the history store. *)
From Coq Require Import List Arith Bool ZArith Lia.
Import ListNotations.
From LSF Require Import TraceSpec.

(* numbering by position: ids 1..n, previousEventId = id - 1 *)
Fixpoint number_from {A} (i : nat) (l : list A) : list (nat * nat * A) :=
  match l with [] => [] | a :: r => (i, i - 1, a) :: number_from (S i) r end.
Definition number_events {A} (l : list A) : list (nat * nat * A) := number_from 1 l.

Fixpoint numbered_from {A} (i : nat) (l : list (nat * nat * A)) : bool :=
  match l with
  | [] => true
  | (id, prev, _) :: r => Nat.eqb id i && Nat.eqb prev (i - 1) && numbered_from (S i) r
  end.
Definition numbered_ok {A} (l : list (nat * nat * A)) : bool := numbered_from 1 l.

Lemma number_from_ok {A} (l : list A) : forall i, numbered_from i (number_from i l) = true.
Proof. induction l as [|a l IH]; intros i; cbn; [reflexivity|]. rewrite !Nat.eqb_refl. apply IH. Qed.

(* one returned history event: timestamp in 1/64 s, kind, interned payload (input for Started/Entered,
   output for Exited/Succeeded, (error, cause) for Failed) *)
Record hevent := { h_ts : Z; h_kind : hkind; h_payload : option nat }.

Fixpoint ts_monotone (l : list hevent) : bool :=
  match l with
  | a :: ((b :: _) as r) => Z.leb (h_ts a) (h_ts b) && ts_monotone r
  | _ => true
  end.

Definition hevent_eqb (a b : hevent) : bool :=
  Z.eqb (h_ts a) (h_ts b) && hkind_eqb (h_kind a) (h_kind b) && opt_nat_eqb (h_payload a) (h_payload b).

Fixpoint list_eqb {A} (eqb : A -> A -> bool) (a b : list A) : bool :=
  match a, b with
  | [], [] => true
  | x :: a', y :: b' => eqb x y && list_eqb eqb a' b'
  | _, _ => false
  end.

Definition triple_eqb (a b : nat * nat * hevent) : bool :=
  let '(i, p, e) := a in let '(j, q, f) := b in Nat.eqb i j && Nat.eqb p q && hevent_eqb e f.

(* in a machine without fan-out the output of a state is the input of the next state entered *)
Fixpoint chained (l : list hevent) (last_out : option (option nat)) : bool :=
  match l with
  | [] => true
  | e :: r =>
      match h_kind e with
      | HStateExited _ => chained r (Some (h_payload e))
      | HStateEntered _ =>
          (match last_out with Some p => opt_nat_eqb p (h_payload e) | None => true end) && chained r None
      | HExecutionSucceeded =>
          (match last_out with Some p => opt_nat_eqb p (h_payload e) | None => true end) && chained r None
      | _ => chained r last_out
      end
  end.

Record c09_case := {
  hx_events : list (nat * nat * hevent);     (* GetExecutionHistory, forward *)
  hx_reversed : list (nat * nat * hevent);   (* reverseOrder = true *)
  hx_input : nat;                            (* interned execution input (DescribeExecution) *)
  hx_status : option status;                 (* DescribeExecution status *)
  hx_result : option nat;                    (* interned output, or (error, cause), from DescribeExecution *)
  hx_sequential : bool                       (* the machine has no Parallel/Map state *)
}.

Definition kinds (c : c09_case) : list hkind := map (fun t => h_kind (snd t)) (hx_events c).

Definition c09_numbering_ok (c : c09_case) : bool := numbered_ok (hx_events c).
Definition c09_time_ok (c : c09_case) : bool := ts_monotone (map snd (hx_events c)).
Definition c09_reverse_ok (c : c09_case) : bool := list_eqb triple_eqb (hx_reversed c) (rev (hx_events c)).
Definition c09_shape_ok (c : c09_case) : bool := hist_wf (kinds c).
Definition c09_first_ok (c : c09_case) : bool :=
  match hx_events c with
  | [] => match hx_status c with None => true | _ => false end
  | (_, _, e) :: _ => hkind_eqb (h_kind e) HExecutionStarted && opt_nat_eqb (h_payload e) (Some (hx_input c))
  end.
Definition c09_last_ok (c : c09_case) : bool :=
  match hx_status c, rev (hx_events c) with
  | Some Succeeded, (_, _, e) :: _ => hkind_eqb (h_kind e) HExecutionSucceeded && opt_nat_eqb (h_payload e) (hx_result c)
  | Some Failed, (_, _, e) :: _ => hkind_eqb (h_kind e) HExecutionFailed && opt_nat_eqb (h_payload e) (hx_result c)
  | Some Running, _ => negb (existsb is_terminal_h (kinds c))
  | None, l => match l with [] => true | _ => false end
  | _, [] => false
  end.
Definition c09_chain_ok (c : c09_case) : bool := negb (hx_sequential c) || chained (map snd (hx_events c)) None.

(* the store only grows: every sample of the history (as interned events) extends the one before *)
Fixpoint is_prefix (a b : list nat) : bool :=
  match a, b with
  | [], _ => true
  | x :: a', y :: b' => Nat.eqb x y && is_prefix a' b'
  | _, [] => false
  end.
Fixpoint prefix_chain (l : list (list nat)) : bool :=
  match l with
  | a :: ((b :: _) as r) => is_prefix a b && prefix_chain r
  | _ => true
  end.
