(* What check_C11 decides on the observability surfaces of real executions. *)
From Coq Require Import List Arith Bool ZArith Lia String.
Import ListNotations.
From LSF Require Import PyStr Json TraceSpec C02Oracle.
Open Scope Z_scope.

(* int(t * 1000) for a time t = k/64 s of the virtual clock *)
Definition to_ms (k : Z) : Z := (k * 1000) / 64.

(* one view of an execution after a step: status of the record, of the last notification, of the last
   history event (RUNNING unless it is terminal), and interned input / result (output, or (error, cause)) of each *)
Record view := { v_status : option status; v_input : option nat; v_result : option nat }.

Definition onat_eqb (a b : option nat) : bool :=
  match a, b with Some x, Some y => Nat.eqb x y | None, None => true | _, _ => false end.
Definition view_eqb (a b : view) : bool :=
  opt_status_eqb (v_status a) (v_status b) && onat_eqb (v_input a) (v_input b) && onat_eqb (v_result a) (v_result b).

(* (record view, notification view, history view) after one step *)
Definition c11_sample := (view * view * view)%type.
Definition c11_agree (s : c11_sample) : bool :=
  let '(r, n, h) := s in view_eqb r n && view_eqb r h.

(* STANDARD: all three agree at every step; EXPRESS: there is no record and no history, only notifications *)
Definition c11_case := (bool * list c11_sample)%type.
Definition c11_views_ok (c : c11_case) : bool :=
  let '(express, l) := c in
  if express then forallb (fun s => let '(r, _, h) := s in match v_status r, v_status h with None, None => true | _, _ => false end) l
  else forallb c11_agree l.

(* the input that the notifications of an execution report is the same from the first (RUNNING) to the last (terminal)
   notification; this is all an EXPRESS execution, which has neither record nor history, can be held to *)
Definition note_inputs (l : list c11_sample) : list nat :=
  flat_map (fun s => let '(_, n, _) := s in match v_status n, v_input n with Some _, Some i => [i] | _, _ => [] end) l.
Definition c11_input_stable (c : c11_case) : bool :=
  match note_inputs (snd c) with
  | [] => true
  | i0 :: rest => forallb (Nat.eqb i0) rest
  end &&
  forallb (fun s => let '(_, n, _) := s in match v_status n, v_input n with Some _, None => false | _, _ => true end) (snd c).

(* one published notification: subject, the CloudWatch-style body, and the record (as JSON) read right after *)
Definition c11_note := (string * json * json)%type.

Definition jstr (o : option json) : option string := match o with Some (JStr s) => Some s | _ => None end.
Definition ostr_eqb (a b : option string) : bool :=
  match a, b with Some x, Some y => String.eqb x y | None, None => true | _, _ => false end.

(* a JSON time in seconds on the virtual clock -> 64ths ; a JSON integer -> Z *)
Definition secs64 (o : option json) : option Z :=
  match o with
  | Some (JInt n) => Some (n * 64)
  | Some (JFlt n d) => if Z.eqb (64 mod (Z.pos d)) 0 then Some (n * (64 / Z.pos d)) else None
  | _ => None
  end.
Definition jint (o : option json) : option Z := match o with Some (JInt n) => Some n | _ => None end.
Definition oz_eqb (a b : option Z) : bool :=
  match a, b with Some x, Some y => Z.eqb x y | None, None => true | _, _ => false end.

(* current: no later notification of this execution was published in the same handler invocation, so the
   record read afterwards is the one this notification was made from *)
Definition c11_note_ok (express current : bool) (c : c11_note) : bool :=
  let '(subject, body, rec) := c in
  match body with
  | JObj b =>
      match obj_get b "detail" with
      | Some (JObj d) =>
          (* subject = <stateMachineArn>.<status> *)
          match jstr (obj_get d "stateMachineArn"), jstr (obj_get d "status"), jstr (obj_get d "executionArn") with
          | Some sm, Some st, Some xa =>
              String.eqb subject (sm ++ "." ++ st)%string &&
              ostr_eqb (jstr (obj_get b "detail-type")) (Some "Step Functions Execution Status Change"%string) &&
              ostr_eqb (jstr (obj_get b "source")) (Some "aws.states"%string) &&
              ostr_eqb (jstr (obj_get b "version")) (Some "0"%string) &&
              json_eqb (match obj_get b "resources" with Some r => r | None => JNull end) (JArr [JStr xa]) &&
              (* the stored record keeps seconds; the notification carries the same instants in milliseconds *)
              (express ||
               match rec with
               | JObj r =>
                   oz_eqb (jint (obj_get d "startDate")) (option_map to_ms (secs64 (obj_get r "startDate"))) &&
                   json_eqb (match obj_get r "input" with Some x => x | None => JNull end) (match obj_get d "input" with Some x => x | None => JNull end) &&
                   (negb current ||
                    (match obj_get r "stopDate" with
                     | Some JNull | None => match obj_get d "stopDate" with Some JNull | None => true | _ => false end
                     | sd => oz_eqb (jint (obj_get d "stopDate")) (option_map to_ms (secs64 sd))
                     end) &&
                    ostr_eqb (jstr (obj_get r "status")) (Some st) &&
                    json_eqb (match obj_get r "output" with Some x => x | None => JNull end) (match obj_get d "output" with Some x => x | None => JNull end))
               | _ => false
               end)
          | _, _, _ => false
          end
      | _ => false
      end
  | _ => false
  end.
Close Scope Z_scope.
