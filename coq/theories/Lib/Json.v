(* JSON values as Python sees them after json.loads: insertion-ordered objects,
   unbounded integers, floats as exact fractions n/d (every finite binary float is one). *)
From LSF Require Export PyStr.
From Coq Require Import QArith.
Close Scope Q_scope.
Open Scope string_scope.

Inductive json :=
| JNull
| JBool (b : bool)
| JInt (z : Z)
| JFlt (n : Z) (d : positive)
| JStr (s : string)
| JArr (l : list json)
| JObj (kv : list (string * json)).

Definition json_ind' (P : json -> Prop)
  (HNull : P JNull) (HBool : forall b, P (JBool b)) (HInt : forall z, P (JInt z))
  (HFlt : forall n d, P (JFlt n d)) (HStr : forall s, P (JStr s))
  (HArr : forall l, Forall P l -> P (JArr l))
  (HObj : forall kv, Forall (fun p => P (snd p)) kv -> P (JObj kv)) : forall j, P j :=
  fix json_ind' (j : json) : P j :=
    match j with
    | JNull => HNull
    | JBool b => HBool b
    | JInt z => HInt z
    | JFlt n d => HFlt n d
    | JStr s => HStr s
    | JArr l =>
        HArr l ((fix go (l : list json) : Forall P l :=
                   match l with
                   | [] => Forall_nil _
                   | x :: r => Forall_cons _ (json_ind' x) (go r)
                   end) l)
    | JObj kv =>
        HObj kv ((fix go (kv : list (string * json)) : Forall (fun p => P (snd p)) kv :=
                    match kv with
                    | [] => Forall_nil _
                    | (k, v) :: r => Forall_cons (k, v) (json_ind' v) (go r)
                    end) kv)
    end.

Fixpoint json_eqb (a b : json) : bool :=
  match a, b with
  | JNull, JNull => true
  | JBool x, JBool y => Bool.eqb x y
  | JInt x, JInt y => Z.eqb x y
  | JFlt n d, JFlt n' d' => Z.eqb n n' && Pos.eqb d d'
  | JStr x, JStr y => String.eqb x y
  | JArr l, JArr m =>
      (fix go (l m : list json) : bool :=
         match l, m with
         | [], [] => true
         | x :: l', y :: m' => json_eqb x y && go l' m'
         | _, _ => false
         end) l m
  | JObj l, JObj m =>
      (fix go (l m : list (string * json)) : bool :=
         match l, m with
         | [], [] => true
         | (k, x) :: l', (k', y) :: m' => String.eqb k k' && json_eqb x y && go l' m'
         | _, _ => false
         end) l m
  | _, _ => false
  end.

Lemma json_eqb_refl : forall j, json_eqb j j = true.
Proof.
  induction j as [| | | | |l IH|kv IH] using json_ind'; cbn [json_eqb]; auto using Bool.eqb_reflx, Z.eqb_refl, String.eqb_refl.
  - rewrite Z.eqb_refl, Pos.eqb_refl. reflexivity.
  - induction IH as [|x l Hx _ IH]; [reflexivity|]. rewrite Hx. exact IH.
  - induction IH as [|[k x] kv Hx _ IH]; [reflexivity|]. cbn [snd] in Hx. rewrite String.eqb_refl, Hx. exact IH.
Qed.

Lemma json_eqb_eq : forall a c, json_eqb a c = true -> a = c.
Proof.
  induction a as [| | | | |l IH|kv IH] using json_ind'; intros [| | | | |m|m]; cbn [json_eqb]; intros E;
    try discriminate; try reflexivity.
  - apply Bool.eqb_prop in E. congruence.
  - apply Z.eqb_eq in E. congruence.
  - apply andb_true_iff in E as [E1 E2]. apply Z.eqb_eq in E1. apply Pos.eqb_eq in E2. congruence.
  - apply String.eqb_eq in E. congruence.
  - f_equal. revert m E. induction IH as [|x l Hx _ IH]; intros [|y m] E; try discriminate; [reflexivity|].
    apply andb_true_iff in E as [E1 E2]. rewrite (Hx _ E1), (IH _ E2). reflexivity.
  - f_equal. revert m E. induction IH as [|[k x] kv Hx _ IH]; intros [|[k' y] m] E; try discriminate; [reflexivity|].
    cbn [snd] in Hx. apply andb_true_iff in E as [E E3]. apply andb_true_iff in E as [E1 E2]. apply String.eqb_eq in E1.
    rewrite E1, (Hx _ E2), (IH _ E3). reflexivity.
Qed.

Fixpoint obj_get (kv : list (string * json)) (k : string) : option json :=
  match kv with
  | [] => None
  | (k', v) :: r => if String.eqb k' k then Some v else obj_get r k
  end.

(* d[k] = v : replace in place or append, as a Python dict does *)
Fixpoint obj_set (kv : list (string * json)) (k : string) (v : json) : list (string * json) :=
  match kv with
  | [] => [(k, v)]
  | (k', v') :: r => if String.eqb k' k then (k', v) :: r else (k', v') :: obj_set r k v
  end.

Fixpoint obj_del (kv : list (string * json)) (k : string) : list (string * json) :=
  match kv with
  | [] => []
  | (k', v') :: r => if String.eqb k' k then r else (k', v') :: obj_del r k
  end.

Definition obj_has (kv : list (string * json)) (k : string) : bool :=
  match obj_get kv k with Some _ => true | None => false end.

Lemma obj_get_set_same kv k v : obj_get (obj_set kv k v) k = Some v.
Proof.
  induction kv as [|[k' v'] r IH]; cbn [obj_set obj_get].
  - rewrite String.eqb_refl. reflexivity.
  - destruct (String.eqb k' k) eqn:E; cbn [obj_get]; rewrite E; [reflexivity|exact IH].
Qed.

Lemma obj_get_set_other kv k k2 v : k <> k2 -> obj_get (obj_set kv k v) k2 = obj_get kv k2.
Proof.
  intros N. induction kv as [|[k' v'] r IH]; cbn [obj_set obj_get].
  - destruct (String.eqb_spec k k2); [contradiction|reflexivity].
  - destruct (String.eqb_spec k' k) as [->|N']; cbn [obj_get].
    + destruct (String.eqb_spec k k2); [contradiction|reflexivity].
    + destruct (String.eqb k' k2); [reflexivity|exact IH].
Qed.

Lemma obj_get_in kv k v : obj_get kv k = Some v -> In (k, v) kv.
Proof.
  induction kv as [|[k' v'] r IH]; cbn [obj_get]; [discriminate|].
  destruct (String.eqb_spec k' k) as [->|_]; [intros [= ->]; left; reflexivity|right; auto].
Qed.

Lemma forallb_obj_set f kv k v :
  forallb f kv = true -> f (k, v) = true -> forallb f (obj_set kv k v) = true.
Proof.
  intros H Hv. induction kv as [|[k' v'] r IH]; cbn [obj_set forallb] in *; [rewrite Hv; reflexivity|].
  apply andb_true_iff in H as [H1 H2]. destruct (String.eqb_spec k' k) as [->|_]; cbn [forallb].
  - rewrite Hv. exact H2.
  - rewrite H1. exact (IH H2).
Qed.

Lemma obj_set_fresh acc k (v : json) :
  existsb (String.eqb k) (map fst acc) = false -> obj_set acc k v = (acc ++ [(k, v)])%list.
Proof.
  induction acc as [|[k' v'] acc IH]; cbn [map fst existsb obj_set app]; intros H; [reflexivity|].
  apply orb_false_iff in H as [H1 H2]. rewrite String.eqb_sym, H1, (IH H2). reflexivity.
Qed.

Lemma existsb_eqb_obj_set k kv t v :
  existsb (String.eqb k) (map fst (obj_set kv t v)) = existsb (String.eqb k) (map fst kv) || String.eqb k t.
Proof.
  induction kv as [|[k' v'] kv IH]; cbn [obj_set map fst existsb].
  - rewrite orb_false_r. reflexivity.
  - destruct (String.eqb_spec k' t) as [->|N]; cbn [map fst existsb].
    + destruct (String.eqb k t); [reflexivity|symmetry; apply orb_false_r].
    + rewrite IH. apply orb_assoc.
Qed.

Fixpoint list_set {A} (l : list A) (i : nat) (v : A) : list A :=
  match l, i with
  | [], _ => []
  | _ :: r, O => v :: r
  | x :: r, S i' => x :: list_set r i' v
  end.

Lemma nth_list_set_same {A} (l : list A) i v : i < length l -> nth_error (list_set l i v) i = Some v.
Proof.
  revert i. induction l as [|x r IH]; intros [|i] H; cbn in *; try lia; [reflexivity|]. apply IH. lia.
Qed.

Lemma nth_list_set_other {A} (l : list A) i j v : i <> j -> nth_error (list_set l i v) j = nth_error l j.
Proof.
  revert i j. induction l as [|x r IH]; intros [|i] [|j] H; cbn; try reflexivity; try contradiction.
  apply IH. congruence.
Qed.

Lemma length_list_set {A} (l : list A) i v : length (list_set l i v) = length l.
Proof. revert i. induction l as [|x r IH]; intros [|i]; cbn; auto. Qed.

Lemma forallb_list_set {A} (f : A -> bool) l i v :
  forallb f l = true -> f v = true -> forallb f (list_set l i v) = true.
Proof.
  intros H Hv. revert i. induction l as [|x r IH]; intros [|i]; cbn [list_set forallb] in *; try reflexivity;
    apply andb_true_iff in H as [H1 H2].
  - rewrite Hv. exact H2.
  - rewrite H1. exact (IH H2 i).
Qed.

Fixpoint keys_nodup (ks : list string) : bool :=
  match ks with
  | [] => true
  | k :: r => negb (existsb (String.eqb k) r) && keys_nodup r
  end.

Lemma keys_nodup_obj_set kv t v :
  keys_nodup (map fst kv) = true -> keys_nodup (map fst (obj_set kv t v)) = true.
Proof.
  induction kv as [|[k' v'] kv IH]; cbn [obj_set map fst keys_nodup]; intros H; [reflexivity|].
  apply andb_true_iff in H as [H1 H2].
  destruct (String.eqb_spec k' t) as [->|N]; cbn [map fst keys_nodup].
  - rewrite H1, H2. reflexivity.
  - apply negb_true_iff in H1. apply String.eqb_neq in N.
    rewrite existsb_eqb_obj_set, H1, N, (IH H2). reflexivity.
Qed.

Lemma keys_nodup_mid a k r : keys_nodup (a ++ k :: r) = true -> existsb (String.eqb k) a = false.
Proof.
  induction a as [|k' a IH]; cbn [app keys_nodup existsb]; intros H; [reflexivity|].
  apply andb_true_iff in H as [H1 H2]. apply negb_true_iff in H1. rewrite existsb_app in H1.
  apply orb_false_iff in H1 as [_ H1]. apply orb_false_iff in H1 as [H1 _].
  rewrite String.eqb_sym, H1. exact (IH H2).
Qed.

(* unique member names at every level *)
Fixpoint json_wf (j : json) : bool :=
  match j with
  | JArr l => forallb json_wf l
  | JObj kv => keys_nodup (map fst kv) &&
               (fix go (kv : list (string * json)) : bool :=
                  match kv with [] => true | (_, v) :: r => json_wf v && go r end) kv
  | _ => true
  end.

Lemma json_wf_obj kv :
  json_wf (JObj kv) = keys_nodup (map fst kv) && forallb (fun p => json_wf (snd p)) kv.
Proof.
  cbn [json_wf]. f_equal. induction kv as [|[k v] r IH]; [reflexivity|]. cbn [forallb snd]. rewrite IH. reflexivity.
Qed.

Lemma json_wf_members kv : json_wf (JObj kv) = true ->
  keys_nodup (map fst kv) = true /\ Forall (fun p => json_wf (snd p) = true) kv.
Proof.
  rewrite json_wf_obj. intros H. apply andb_true_iff in H as [Hk H]. split; [exact Hk|].
  apply Forall_forall, forallb_forall, H.
Qed.

(* bool(x) *)
Definition truthy (j : json) : bool :=
  match j with
  | JNull => false
  | JBool b => b
  | JInt z => negb (Z.eqb z 0)
  | JFlt n _ => negb (Z.eqb n 0)
  | JStr s => negb (String.eqb s "")
  | JArr l => match l with [] => false | _ => true end
  | JObj kv => match kv with [] => false | _ => true end
  end.

Definition is_null (j : json) : bool := match j with JNull => true | _ => false end.

(* numbers as rationals; Python compares int, float and bool numerically *)
Definition num_of (j : json) : option Q :=
  match j with
  | JInt z => Some (inject_Z z)
  | JFlt n d => Some (Qmake n d)
  | JBool b => Some (inject_Z (if b then 1 else 0))
  | _ => None
  end.

(* str.isdigit() and int() of a digit string *)
Definition all_digits (s : string) : bool :=
  negb (String.eqb s "") && forall_char is_digit s.

Fixpoint digits_val_acc (s : string) (acc : N) : N :=
  match s with
  | EmptyString => acc
  | String a r => digits_val_acc r (acc * 10 + N.of_nat (nat_of_ascii a - 48))
  end.
Definition digits_val (s : string) : N := digits_val_acc s 0.
