(* Python str operations used by the engine, over Coq [string].
   Each [ascii] is one code point 0..255 (code points above 255 are outside the model). *)
From Coq Require Export String Ascii List Bool Arith NArith ZArith Lia.
Export ListNotations.
Open Scope string_scope.

Definition ascii_eqb (a b : ascii) : bool := Ascii.eqb a b.

Lemma ascii_eqb_eq a b : ascii_eqb a b = true <-> a = b.
Proof. unfold ascii_eqb. apply Ascii.eqb_eq. Qed.

Lemma ascii_eqb_refl a : ascii_eqb a a = true.
Proof. apply ascii_eqb_eq; reflexivity. Qed.

Lemma ascii_eqb_neq a b : ascii_eqb a b = false <-> a <> b.
Proof. unfold ascii_eqb. apply Ascii.eqb_neq. Qed.

(* A pattern with a character literal is compiled into a tree of tests on the eight bits; these fold it back into one
   comparison.  One lemma for each literal the proofs meet: the pattern is syntax, no statement can quantify over it. *)
Lemma ascii_match_quote {A} (a : ascii) (x y : A) :
  match a with "'"%char => x | _ => y end = if Ascii.eqb a "'" then x else y.
Proof. destruct a as [[] [] [] [] [] [] [] []]; reflexivity. Qed.

Lemma ascii_match_dollar {A} (a : ascii) (x y : A) :
  match a with "$"%char => x | _ => y end = if Ascii.eqb a "$" then x else y.
Proof. destruct a as [[] [] [] [] [] [] [] []]; reflexivity. Qed.

Lemma ascii_match_rbrace {A} (a : ascii) (x y : A) :
  match a with "}"%char => x | _ => y end = if Ascii.eqb a "}" then x else y.
Proof. destruct a as [[] [] [] [] [] [] [] []]; reflexivity. Qed.

Lemma append_assoc (a b c : string) : (a ++ b) ++ c = a ++ (b ++ c).
Proof. induction a as [|x a IH]; simpl; [reflexivity|]. rewrite IH. reflexivity. Qed.

Lemma append_nil_r (a : string) : a ++ "" = a.
Proof. induction a as [|x a IH]; simpl; [reflexivity|]. rewrite IH. reflexivity. Qed.

Lemma length_append (a b : string) : String.length (a ++ b) = String.length a + String.length b.
Proof. induction a as [|x a IH]; simpl; [reflexivity|]. rewrite IH. reflexivity. Qed.

(* [c in s] for a one-character string c *)
Fixpoint has_char (c : ascii) (s : string) : bool :=
  match s with
  | EmptyString => false
  | String a r => ascii_eqb a c || has_char c r
  end.

Lemma has_char_app c a b : has_char c (a ++ b) = has_char c a || has_char c b.
Proof. induction a as [|x a IH]; simpl; [reflexivity|]. rewrite IH. apply orb_assoc. Qed.

(* first occurrence: (text before, text after) *)
Fixpoint find_char (c : ascii) (s : string) : option (string * string) :=
  match s with
  | EmptyString => None
  | String a r =>
      if ascii_eqb a c then Some (EmptyString, r)
      else match find_char c r with
           | Some (p, q) => Some (String a p, q)
           | None => None
           end
  end.

Lemma has_char_find c s : has_char c s = match find_char c s with Some _ => true | None => false end.
Proof.
  induction s as [|a r IH]; cbn [has_char find_char]; [reflexivity|].
  destruct (ascii_eqb a c); [reflexivity|]. rewrite IH. destruct (find_char c r) as [[? ?]|]; reflexivity.
Qed.

Lemma find_char_none c s : has_char c s = false -> find_char c s = None.
Proof. rewrite has_char_find. destruct (find_char c s); [discriminate|reflexivity]. Qed.

Lemma find_char_some_has c s p q : find_char c s = Some (p, q) -> has_char c s = true.
Proof. intros H. rewrite has_char_find, H. reflexivity. Qed.

Lemma find_char_app c a b :
  has_char c a = false -> find_char c (a ++ String c b) = Some (a, b).
Proof.
  induction a as [|x a IH]; simpl; intros H.
  - rewrite ascii_eqb_refl. reflexivity.
  - apply orb_false_iff in H as [Hx Ha]. rewrite Hx, (IH Ha). reflexivity.
Qed.

Lemma find_char_spec c s p q :
  find_char c s = Some (p, q) -> s = p ++ String c q /\ has_char c p = false.
Proof.
  revert p q. induction s as [|a r IH]; simpl; intros p q H; [discriminate|].
  destruct (ascii_eqb a c) eqn:E.
  - inversion H; subst. apply ascii_eqb_eq in E. subst. split; reflexivity.
  - destruct (find_char c r) as [[p' q']|] eqn:F; [|discriminate].
    inversion H; subst. destruct (IH _ _ eq_refl) as [-> Hp]. split; [reflexivity|].
    simpl. rewrite E, Hp. reflexivity.
Qed.

(* last occurrence: (text before, text after) *)
Fixpoint rfind_char (c : ascii) (s : string) : option (string * string) :=
  match s with
  | EmptyString => None
  | String a r =>
      match rfind_char c r with
      | Some (p, q) => Some (String a p, q)
      | None => if ascii_eqb a c then Some (EmptyString, r) else None
      end
  end.

Lemma has_char_rfind c s : has_char c s = match rfind_char c s with Some _ => true | None => false end.
Proof.
  induction s as [|a r IH]; cbn [has_char rfind_char]; [reflexivity|]. rewrite IH.
  destruct (rfind_char c r) as [[? ?]|]; [apply orb_true_r|]. rewrite orb_false_r. destruct (ascii_eqb a c); reflexivity.
Qed.

Lemma rfind_char_none c s : has_char c s = false -> rfind_char c s = None.
Proof. rewrite has_char_rfind. destruct (rfind_char c s); [discriminate|reflexivity]. Qed.

Lemma rfind_char_app c a b :
  has_char c b = false -> rfind_char c (a ++ String c b) = Some (a, b).
Proof.
  intros Hb. induction a as [|x a IH]; simpl.
  - rewrite (rfind_char_none _ _ Hb), ascii_eqb_refl. reflexivity.
  - rewrite IH. reflexivity.
Qed.

Lemma rfind_char_spec c s p q :
  rfind_char c s = Some (p, q) -> s = p ++ String c q /\ has_char c q = false.
Proof.
  revert p q. induction s as [|a r IH]; simpl; intros p q H; [discriminate|].
  destruct (rfind_char c r) as [[p' q']|] eqn:F.
  - inversion H; subst. destruct (IH _ _ eq_refl) as [-> Hq]. split; [reflexivity|exact Hq].
  - destruct (ascii_eqb a c) eqn:E; [|discriminate].
    inversion H; subst. apply ascii_eqb_eq in E. subst. split; [reflexivity|].
    rewrite has_char_rfind, F. reflexivity.
Qed.

(* s.split(c, n): at most n splits, from the left *)
Fixpoint split_char_n (c : ascii) (n : nat) (s : string) : list string :=
  match n with
  | O => [s]
  | S n' =>
      match find_char c s with
      | None => [s]
      | Some (a, b) => a :: split_char_n c n' b
      end
  end.

Lemma split_char_n_nochar c n s : has_char c s = false -> split_char_n c n s = [s].
Proof. intros H. destruct n; simpl; [reflexivity|]. rewrite (find_char_none _ _ H). reflexivity. Qed.

Lemma split_char_n_app c n a b :
  has_char c a = false ->
  split_char_n c (S n) (a ++ String c b) = a :: split_char_n c n b.
Proof. intros H. simpl. rewrite (find_char_app _ _ _ H). reflexivity. Qed.

(* s.split(c) *)
Definition split_char (c : ascii) (s : string) : list string :=
  split_char_n c (String.length s) s.

(* s.partition(c) / s.rpartition(c) for a one-character separator *)
Definition partition_char (c : ascii) (s : string) : string * string * string :=
  match find_char c s with
  | Some (a, b) => (a, String c EmptyString, b)
  | None => (s, EmptyString, EmptyString)
  end.

Definition rpartition_char (c : ascii) (s : string) : string * string * string :=
  match rfind_char c s with
  | Some (a, b) => (a, String c EmptyString, b)
  | None => (EmptyString, EmptyString, s)
  end.

Lemma rpartition_char_app c a b : has_char c b = false -> rpartition_char c (a ++ String c b) = (a, String c "", b).
Proof. intros H. unfold rpartition_char. rewrite (rfind_char_app _ _ _ H). reflexivity. Qed.

Fixpoint join_char (c : ascii) (l : list string) : string :=
  match l with
  | [] => EmptyString
  | [x] => x
  | x :: r => x ++ String c (join_char c r)
  end.

Fixpoint prefixb (p s : string) : bool :=
  match p, s with
  | EmptyString, _ => true
  | String a p', String b s' => ascii_eqb a b && prefixb p' s'
  | _, _ => false
  end.

(* substring test: [p in s] *)
Fixpoint substrb (p s : string) : bool :=
  prefixb p s ||
  match s with
  | EmptyString => false
  | String _ r => substrb p r
  end.

Fixpoint forall_char (f : ascii -> bool) (s : string) : bool :=
  match s with
  | EmptyString => true
  | String a r => f a && forall_char f r
  end.

Lemma forall_char_impl (f g : ascii -> bool) s :
  (forall a, f a = true -> g a = true) -> forall_char f s = true -> forall_char g s = true.
Proof.
  intros I. induction s as [|a s IH]; cbn [forall_char]; [reflexivity|].
  intros H. apply andb_true_iff in H as [Ha Hs]. rewrite (I _ Ha). exact (IH Hs).
Qed.

Fixpoint exists_char (f : ascii -> bool) (s : string) : bool :=
  match s with
  | EmptyString => false
  | String a r => f a || exists_char f r
  end.

Lemma exists_char_app f a b : exists_char f (a ++ b) = exists_char f a || exists_char f b.
Proof. induction a as [|c a IH]; cbn [append exists_char]; [reflexivity|]. rewrite IH, orb_assoc. reflexivity. Qed.

Lemma exists_char_ext f g s : (forall a, f a = g a) -> exists_char f s = exists_char g s.
Proof. intros E. induction s as [|a r IH]; cbn [exists_char]; [reflexivity|]. rewrite E, IH. reflexivity. Qed.

Lemma exists_char_false f c s : exists_char f s = false -> f c = true -> has_char c s = false.
Proof.
  intros H Hf. induction s as [|a r IH]; cbn [has_char exists_char] in *; [reflexivity|].
  apply orb_false_iff in H as [Ha Hr]. rewrite (IH Hr), orb_false_r. apply ascii_eqb_neq. congruence.
Qed.

Definition is_digit (a : ascii) : bool :=
  let n := nat_of_ascii a in Nat.leb 48 n && Nat.leb n 57.

(* string built from code points; used by generated case files *)
Fixpoint str_of_codes (l : list nat) : string :=
  match l with
  | [] => EmptyString
  | n :: r => String (ascii_of_nat n) (str_of_codes r)
  end.

Fixpoint codes_of_str (s : string) : list nat :=
  match s with
  | EmptyString => []
  | String a r => nat_of_ascii a :: codes_of_str r
  end.

Lemma str_codes_roundtrip s : str_of_codes (codes_of_str s) = s.
Proof. induction s as [|a r IH]; simpl; [reflexivity|]. rewrite ascii_nat_embedding, IH. reflexivity. Qed.

Fixpoint str_take (n : nat) (s : string) : string :=
  match n, s with
  | S n', String a r => String a (str_take n' r)
  | _, _ => EmptyString
  end.
Fixpoint str_drop (n : nat) (s : string) : string :=
  match n, s with
  | S n', String _ r => str_drop n' r
  | _, _ => s
  end.
Definition str_sub (i len : nat) (s : string) : string := str_take len (str_drop i s).

Lemma str_take_app d o : str_take (String.length d) (d ++ o) = d.
Proof. induction d as [|a d IH]; cbn; [destruct o; reflexivity|]. rewrite IH. reflexivity. Qed.

Lemma str_drop_app d o : str_drop (String.length d) (d ++ o) = o.
Proof. induction d as [|a d IH]; cbn; [reflexivity|exact IH]. Qed.
