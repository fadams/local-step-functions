(* C06 - A failing branch fails its Parallel/Map once; siblings cannot disturb the result.
   Model/FanoutFail.v states the termination protocol of one fan-out; harness/check_C06.py runs
   real Parallel/Map states with every assignment of failures to branches and every order of the
   replies (small fan-outs exhaustively), replays them on the model inside Coq, and evaluates the
   monitors of C02/C03/C09 and the semantics of C01 on failing fan-outs (nested, retried, caught)
   under random schedules. *)
From Coq Require Import List Lia.
Import ListNotations.
From LSF Require Import Join FanoutFail FanoutFailProofs.

(* a failure handled while the state is live fails it with that branch's error, cancels exactly the siblings
   still running and leaves no branch running *)
Theorem C06_failure_fails_state_and_cancels_siblings : forall s i e,
  outcome s = None ->
  let '(s', effs) := fstep s (EFail i e) in
  outcome s' = Some (Some e) /\
  (forall j, In (Cancel j) effs <-> (nth_error (set_nth i BFail (brs s)) j = Some BRun)) /\
  ~ In BRun (brs s').
Proof.
  intros s i e H. unfold fstep. rewrite H. split; [reflexivity|]. split.
  - intros j. rewrite in_app_iff, in_map_iff. split.
    + intros [(k & [= ->] & Hk)|[F|[]]]; [|discriminate]. apply running_from_spec in Hk as (m & -> & Hm). exact Hm.
    + intros Hj. left. exists j. split; [reflexivity|]. apply running_from_spec. exists j. split; [reflexivity|exact Hj].
  - cbn [brs]. intros F. apply in_map_iff in F as (b & Hb & _). destruct b; discriminate.
Qed.

(* once decided - joined or failed - the outcome is final *)
Theorem C06_decision_is_final : forall evs s o, outcome s = Some o ->
  outcome (fst (frun s evs)) = Some o /\ forallb is_drop (snd (frun s evs)) = true.
Proof.
  induction evs as [|ev r IH]; intros s o H; [split; [exact H|reflexivity]|]. rewrite frun_cons. cbn [fst snd].
  destruct (fstep_decided s ev o H) as (H1 & H2). rewrite forallb_app, H2. apply IH. exact H1.
Qed.

(* nothing that arrives afterwards - late replies, queued events, later failures, in any number and order -
   changes the outcome or has any effect except being dropped *)
Theorem C06_siblings_cannot_disturb : forall s i e evs,
  outcome s = None ->
  let s1 := fst (fstep s (EFail i e)) in
  outcome (fst (frun s1 evs)) = Some (Some e) /\ forallb is_drop (snd (frun s1 evs)) = true.
Proof. intros s i e evs H s1. apply C06_decision_is_final. unfold s1, fstep. rewrite H. reflexivity. Qed.

(* for every sequence of branch events the state is decided at most once (exactly once iff decided) *)
Theorem C06_decided_once : forall evs s,
  outcome s = None ->
  length (filter is_decision (snd (frun s evs))) = match outcome (fst (frun s evs)) with Some _ => 1 | None => 0 end.
Proof. intros evs s H. pose proof (frun_decisions evs s) as D. unfold decided in D. rewrite H in D. lia. Qed.

Example C06_example :
  frun (finit 3) [EFinish 1; EFail 2 7; EFail 0 9; EFinish 0] =
  ({| brs := [BGone; BDone; BFail]; outcome := Some (Some 7) |}, [Cancel 0; FailWith 7; Drop 0; Drop 0]).
Proof. reflexivity. Qed.

Print Assumptions C06_failure_fails_state_and_cancels_siblings.
Print Assumptions C06_siblings_cannot_disturb.
Print Assumptions C06_decided_once.
Print Assumptions C06_decision_is_final.
