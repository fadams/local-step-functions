(* C20 - Stores act as dictionaries, persist definitions, and caches are never stale.
   Model/Stores.v specifies (A) every store kind as a mapping with what survives reopening and
   (B) the cached view over Redis client tracking.  harness/check_C20.py runs random operation
   sequences on the real JSONStore / SimpleStore / RedisDictStore / RedisListStore (the Redis ones
   over an in-process stand-in for redis + pottery, with one or two clients and every placement of
   invalidation delivery) and replays them on the specifications inside Coq. *)
From Coq Require Import List Arith Lia Permutation.
Import ListNotations.
From LSF Require Import Stores StoresProofs.

(* what was last written under a key is what is read back; other keys are untouched *)
Theorem C20_read_your_write : forall kd s k d, d <> [] ->
  snd (sstep kd (fst (sstep kd s (OSet k d))) (OGet k)) = RVal (dsort d) /\
  forall j, j <> k -> snd (sstep kd (fst (sstep kd s (OSet k d))) (OGet j)) = snd (sstep kd s (OGet j)).
Proof.
  intros kd s k [|e d] N; [contradiction|]. split.
  - destruct kd; cbn; rewrite mget_mput_same; reflexivity.
  - intros j Hj. destruct kd; cbn; rewrite mget_mput_other by exact Hj; reflexivity.
Qed.

(* after a delete the key reads as absent and is not a member; other keys are untouched *)
Theorem C20_delete_then_absent : forall kd s k, swf s -> snd (sstep kd s (ODel k)) = ROk ->
  let s' := fst (sstep kd s (ODel k)) in
  snd (sstep kd s' (OGet k)) = RVal [] /\ snd (sstep kd s' (OHas k)) = RBool false /\
  forall j, j <> k -> snd (sstep kd s' (OGet j)) = snd (sstep kd s (OGet j)).
Proof.
  intros kd s k (Hm & _) H. cbn in *. destruct (mget k (mem s)) eqn:E.
  - destruct kd; cbn; rewrite (mget_mdel_same k (mem s) Hm); repeat split; intros j Hj; rewrite mget_mdel_other by exact Hj; reflexivity.
  - destruct kd; try discriminate. cbn. rewrite E. repeat split.
Qed.

Theorem C20_keys_are_unique_always : forall kd s o, swf s -> swf (fst (sstep kd s o)).
Proof.
  (* the new mem and disk are each the old mem or disk, or the old mem after one mput or mdel *)
  intros kd s o (Hm & Hd). destruct o as [k d|k f x|k x|k|k|k| | |]; cbn [sstep]; try (split; assumption);
    [destruct d|destruct (mget k (mem s)) ..]; destruct kd; split; cbn; auto using mput_nodup, mdel_nodup.
Qed.

Theorem C20_length_iteration_membership_agree : forall kd s,
  exists l, snd (sstep kd s OKeys) = RKeys l /\ snd (sstep kd s OLen) = RNat (length l) /\
            forall k, In k l <-> snd (sstep kd s (OHas k)) = RBool true.
Proof.
  intros kd s. exists (ksort (map fst (mem s))). cbn. split; [reflexivity|].
  split; [rewrite ksort_perm, map_length; reflexivity|]. intros k.
  rewrite ksort_perm, mget_in. destruct (mget k (mem s)); split; congruence.
Qed.

(* what was written through the file store or the Redis store is still there after the engine restarts *)
Theorem C20_written_values_survive_restart : forall kd s k d, kd <> SMem -> d <> [] ->
  snd (sstep kd (fst (sstep kd (fst (sstep kd s (OSet k d))) OReopen)) (OGet k)) = RVal (dsort d).
Proof.
  intros kd s k [|e d] Hk N; [contradiction|]. destruct kd; [|contradiction|]; cbn; rewrite mget_mput_same; reflexivity.
Qed.

(* list values keep append order: the appended member gets the next index *)
Theorem C20_lists_keep_append_order : forall kd s k d x, mget k (mem s) = Some d ->
  mget k (mem (fst (sstep kd s (OAppend k x)))) = Some (d ++ [(length d, x)]).
Proof. intros kd s k d x H. cbn. rewrite H. destruct kd; cbn; apply mget_mput_same. Qed.

(* after ANY history of reads, writes (by any client) and deliveries: once every invalidation has been delivered,
   a cached view returns the server's current value *)
Theorem C20_cached_view_is_current : forall c l k,
  let w := crun (cinit c) l in pendingq w = [] -> snd (cstep w (CRead k)) = Some (server_val w k).
Proof.
  intros c l k w P. apply cached_read_current; [apply CI_run, CI_init|]. rewrite P. intros [].
Qed.

Theorem C20_cache_within_capacity : forall w o, length (cache w) <= cap w -> length (cache (fst (cstep w o))) <= cap (fst (cstep w o)).
Proof.
  intros w o H. destruct o as [k|k v| |k]; cbn [cstep]; [| | |exact H].
  - destruct (cget k (cache w)) as [v|] eqn:E; cbn [fst cache cap].
    + rewrite cset_length. pose proof (cdel_length_lt k v _ E). lia.
    + apply trim_length. rewrite cset_length. pose proof (cdel_length k (cache w)). lia.
  - destruct (andb _ _); [exact H|]. destruct (existsb _ _); exact H.
  - destruct (pendingq w); [exact H|]. cbn [fst cache cap]. pose proof (cdel_length k (cache w)). lia.
Qed.

(* a stale read is possible only while the invalidation is still pending, and is gone once it is delivered *)
Example C20_example :
  let w1 := crun (cinit 2) [CWrite 1 7; CRead 1; CWrite 1 8] in
  snd (cstep w1 (CRead 1)) = Some 7 /\ pendingq w1 = [1] /\ snd (cstep (crun w1 [CDeliver]) (CRead 1)) = Some 8.
Proof. vm_compute. repeat split; reflexivity. Qed.

(* membership is the server's truth whatever the cache holds: after a delete by anyone, `k in store` is false at once, also while
   the invalidation is still pending and a cached view would still return the old value *)
Theorem C20_membership_is_the_servers_answer : forall l c k,
  let w := crun (cinit c) l in let w' := fst (cstep w (CHas k)) in
  snd (cstep w (CHas k)) = Some (if Nat.eqb (server_val w k) 0 then 0 else 1) /\ kv w' = kv w /\ cache w' = cache w /\ pendingq w' = pendingq w.
Proof. intros l c k w. cbn [cstep]. repeat split; reflexivity. Qed.

Theorem C20_not_a_member_right_after_delete : forall w k, snd (cstep (fst (cstep w (CWrite k 0))) (CHas k)) = Some 0.
Proof.
  intros w k. change (snd (cstep ?w' (CHas k))) with (Some (if Nat.eqb (server_val w' k) 0 then 0 else 1)).
  rewrite server_val_write, Nat.eqb_refl. reflexivity.
Qed.

Print Assumptions C20_read_your_write.
Print Assumptions C20_delete_then_absent.
Print Assumptions C20_keys_are_unique_always.
Print Assumptions C20_length_iteration_membership_agree.
Print Assumptions C20_written_values_survive_restart.
Print Assumptions C20_lists_keep_append_order.
Print Assumptions C20_cached_view_is_current.
Print Assumptions C20_cache_within_capacity.
Print Assumptions C20_membership_is_the_servers_answer.
Print Assumptions C20_not_a_member_right_after_delete.
