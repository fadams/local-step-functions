(* C05 - Parallel and Map joins are order-independent, complete and concurrency-bounded.
   Model/Join.v is the join of asl_state_collect_results and the block-wise launch of the Map
   delegate (the invariant of its reachable states is in Proofs/LaunchProofs.v); Model/JoinCaught.v adds the
   marker that a caught failure leaves in its slot.  harness/check_C05.py runs real Map/Parallel states for every completion order of
   small fan-outs (and sampled orders beyond), every MaxConcurrency 0..n+1, and replays each run
   on the model inside Coq. *)
From Coq Require Import List Arith Bool Lia Permutation.
Import ListNotations.
From LSF Require Import Join JoinProofs JoinCaught JoinCaughtProofs LaunchProofs.

(* whatever order the branches finish in, slot i holds the output of branch i *)
Theorem C05_order_independent : forall (A : Type) (vs : list A) (d : A) (order : list nat),
  Permutation order (seq 0 (length vs)) -> deliver_all (length vs) vs d order = map Some vs.
Proof.
  intros A vs d order P. apply deliver_all_full. intros j Hj.
  apply (Permutation_in j (Permutation_sym P)), in_seq. lia.
Qed.

(* while some branch has not finished there is an empty slot: the join cannot happen *)
Theorem C05_join_waits_for_all : forall (A : Type) (vs : list A) (d : A) (order : list nat) (j : nat),
  j < length vs -> ~ In j order -> all_some (deliver_all (length vs) vs d order) = false.
Proof.
  intros A vs d order j Hj Hn. apply not_true_is_false. intros E.
  enough (is_some (@None A) = true) by discriminate. apply (forallb_nth_error _ _ j _ E).
  rewrite deliver_all_eq, deliver_notin by exact Hn. apply nth_error_repeat. exact Hj.
Qed.

(* when all have finished the join yields exactly the outputs in index order *)
Theorem C05_join_complete : forall (A : Type) (vs : list A) (d : A) (order : list nat),
  Permutation order (seq 0 (length vs)) ->
  all_some (deliver_all (length vs) vs d order) = true /\ somes (deliver_all (length vs) vs d order) = vs.
Proof.
  intros A vs d order P. rewrite (C05_order_independent A vs d order P).
  split; [apply all_some_map_Some|apply somes_map_Some].
Qed.

(* collect joins exactly when no slot is empty *)
Theorem C05_join_iff_no_slot_empty : forall (A : Type) mc (r : list (option A)) ev_start i v,
  (exists out, snd (collect mc r ev_start i v) = JJoin out) <-> all_some (set_nth i (Some v) r) = true.
Proof.
  intros A mc r ev_start i v. unfold collect. destruct (all_some (set_nth i (Some v) r)); cbn.
  - split; [reflexivity|intros _; eexists; reflexivity].
  - split; [|discriminate]. intros (out & H). destruct (_ && _) in H; discriminate.
Qed.

(* the blocks of a Map state launch every item exactly once, in order; no block exceeds MaxConcurrency *)
Theorem C05_each_item_once : forall mc n,
  flat_map (fun b => seq (fst b) (snd b - fst b)) (batches mc n) = seq 0 n /\
  (mc <> 0 -> forall b, In b (batches mc n) -> snd b - fst b <= mc).
Proof.
  intros mc n. destruct (batches_from_spec n mc n 0) as (H1 & H2); [lia|]. rewrite Nat.sub_0_r in H1. split; assumption.
Qed.

(* the next block is launched only when the current block is complete *)
Theorem C05_next_block_after_current : forall (A : Type) mc (r : list (option A)) ev_start i v r' s' e',
  collect mc r ev_start i v = (r', JNextBatch s' e') ->
  s' = batch_end mc (length r) ev_start /\ all_some (slice ev_start s' r') = true /\ mc <> 0 /\ all_some r' = false.
Proof. intros A mc r ev_start i v r' s' e' H. apply collect_next_inv in H. tauto. Qed.

(* in every state the system can reach, for every completion order, at most MaxConcurrency iterations are in flight *)
Theorem C05_inflight_bounded : forall (A : Type) mc n (l : list (nat * A)) s,
  mc <> 0 -> jrun mc (jinit mc n) l = Some s -> length (inflight s) <= mc.
Proof. intros A mc n l s M H. apply (inflight_bounded mc n s M), (jinv_run mc n l), H. Qed.

(* with the marker that handle_error leaves in the slot of a branch whose failing state was caught by its own Catch:
   the join is announced only when every slot holds an output, and carries exactly those outputs *)
Theorem C05_join_only_when_all_done : forall (A : Type) mc (r : list (slot A)) s e r' res,
  ccollect mc r s e = (r', CJoin res) -> all_done r' = true /\ res = dones r'.
Proof. exact @join_only_when_all_done. Qed.

(* a marked slot blocks the join whatever the other branches report *)
Theorem C05_caught_slot_blocks_join : forall (A : Type) mc (r : list (slot A)) s i v j r' res,
  j < length r -> j <> i -> nth_error r j = Some SCaught -> ccollect mc r s (BDone i v) <> (r', CJoin res).
Proof.
  intros A mc r s i v j r' res _ Hne Hc H. pose proof (ccollect_done_fst mc r s i v) as F. rewrite H in F. cbn [fst] in F. subst r'.
  apply join_only_when_all_done in H as (Hall & _).
  enough (is_done (@SCaught A) = true) by discriminate. apply (forallb_nth_error _ _ j _ Hall).
  rewrite nth_set_other by congruence. exact Hc.
Qed.

(* in every history of reports (marks and outputs in any order and number) a join that is announced carries one output per branch *)
Theorem C05_joins_are_complete : forall (A : Type) (evs : list (bev A)) r res,
  In (CJoin res) (snd (crun r evs)) -> length res = length r.
Proof.
  intros A evs r res H. apply crun_joins in H as (r' & <- & D & ->). apply dones_length, D.
Qed.

(* what has been launched: in every reachable state, for every completion order, the iterations launched so far are exactly those below the
   end of the latest block, and every slot from there on is still empty - those iterations do not exist yet *)
Theorem C05_launched_is_prefix : forall (A : Type) mc n (l : list (nat * A)) s,
  jrun mc (jinit mc n) l = Some s ->
  launched s = seq 0 (batch_end mc n (jstart s)) /\
  (forall j, batch_end mc n (jstart s) <= j -> j < n -> nth_error (res s) j = Some None).
Proof. intros A mc n l s H. apply jinv_run in H as [_ _ _ _ La Be]. split; assumption. Qed.

(* a run of 5 items with MaxConcurrency 2 finishing out of order *)
Example C05_example :
  exists s, jrun 2 (jinit 2 5) [(1, 11); (0, 10); (3, 13); (2, 12); (4, 14)] = Some s /\ somes (res s) = [10; 11; 12; 13; 14] /\ launched s = [0; 1; 2; 3; 4].
Proof. eexists. vm_compute. repeat split; reflexivity. Qed.

Print Assumptions C05_order_independent.
Print Assumptions C05_join_waits_for_all.
Print Assumptions C05_join_complete.
Print Assumptions C05_join_iff_no_slot_empty.
Print Assumptions C05_each_item_once.
Print Assumptions C05_next_block_after_current.
Print Assumptions C05_inflight_bounded.
Print Assumptions C05_join_only_when_all_done.
Print Assumptions C05_caught_slot_blocks_join.
Print Assumptions C05_joins_are_complete.
Print Assumptions C05_launched_is_prefix.
