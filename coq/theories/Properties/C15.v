(* C15 - Child executions and task-token callbacks complete exactly their launching task.
   Model/Tokens.v states the callback protocol and the naming of a synchronous child's result; Model/Children.v is
   the child-launch protocol as a transition system over handler invocations (its theorems rest on the one record
   of invariants of Proofs/ChildrenProofs.v and on the timers of Proofs/ChildrenDrainProofs.v);
   harness/check_C15.py runs real parent/child pairs for every integration form, invalid combinations,
   callback streams (valid, duplicate, late, forged, truncated, ordinary replies before/after) and
   parent timeouts on the simulated fabric and checks them in Coq against this model. *)
From Coq Require Import List Arith String.
Import ListNotations.
From LSF Require Import Tokens TokensProofs Children ChildrenProofs ChildrenDrainProofs.

(* a callback presenting a token completes exactly the task that holds it, with exactly the supplied result;
   every other task is left waiting *)
Theorem C15_callback_completes_exactly_its_task : forall s t r,
  In t (waiting s) ->
  let s' := tstep s (TCallback t r) in
  completed s' = completed s ++ [(t, r)] /\ ~ In t (waiting s') /\ forall u, u <> t -> (In u (waiting s') <-> In u (waiting s)).
Proof.
  intros s t r H. cbn. rewrite (proj2 (existsb_eqb_in t _) H). cbn. split; [reflexivity|].
  split; [|intros u N]; rewrite in_remove_tok; tauto.
Qed.

(* a token that no waiting task holds (forged, duplicate, late) affects no task *)
Theorem C15_foreign_token_affects_no_task : forall s t r, ~ In t (waiting s) -> tstep s (TCallback t r) = s.
Proof. intros s t r H. cbn. destruct (existsb _ _) eqn:E; [|reflexivity]. apply existsb_eqb_in in E. contradiction. Qed.

(* starting from nothing: at most as many completions as starts, whatever callbacks, replies and timeouts arrive in whatever order *)
Theorem C15_completed_at_most_once : forall l t, Tokens.completions_of t (trun tinit l) <= starts_of t l.
Proof. intros l t. exact (completed_at_most_once l t tinit). Qed.

(* capitalising the first letter leaves the rest of a field name alone (str.capitalize() does not) *)
Theorem C15_field_names_keep_their_tail : forall c r, cap_first (String c r) = String (upper c) r.
Proof. reflexivity. Qed.

Theorem C15_documented_names :
  map cap_first ["executionArn"; "input"; "name"; "output"; "startDate"; "stateMachineArn"; "status"; "stopDate"; "error"; "cause"]%string
  = ["ExecutionArn"; "Input"; "Name"; "Output"; "StartDate"; "StateMachineArn"; "Status"; "StopDate"; "Error"; "Cause"]%string.
Proof. exact documented_names. Qed.

(* Model/Children.v, for every run: a child's record is only ever handed over for a child that is terminal, with that status *)
Theorem C15_child_record_only_from_a_terminal_child : forall l w t c ok,
  crun cinit l = Some w -> In (t, VChild c ok) (done w) -> lookup c (kids w) = Some (CEnded ok).
Proof. intros l w t c ok R. apply (ci_done l w (cinv_run l w R)). Qed.

(* for runs without redelivered launches; with one the statement fails (C15_child_end_before_redelivered_launch_refuted) *)
Theorem C15_terminal_child_leaves_no_task_pending : forall l w c ok,
  Forall first_delivery l -> crun cinit l = Some w -> lookup c (kids w) = Some (CEnded ok) -> lookup c (pend w) = None.
Proof.
  intros l w c ok F R K. apply (pend_ok_none w c (ci_pend l w (cinv_run l w R) F)).
  intros A. exact (alive_not_ended _ c A ok K).
Qed.

Theorem C15_child_record_goes_to_the_launching_task : forall l w t c ok,
  Forall first_delivery l -> crun cinit l = Some w -> In (t, VChild c ok) (done w) -> In (c, t) (started w).
Proof. intros l w t c ok F R. apply (ci_done_by l w (cinv_run l w R) F). Qed.

(* launches_of counts every delivery of a launch, redelivered ones too: at most one completion per delivery *)
Theorem C15_launch_completed_at_most_once : forall l w t, crun cinit l = Some w -> ChildrenProofs.completions_of t (done w) <= launches_of t l.
Proof.
  intros l w t R. eapply Nat.le_trans; [apply Nat.le_add_r|exact (ci_load l w (cinv_run l w R) t)].
Qed.

(* the child's end and the hand-over to the parent Task are one handler invocation: record first, then the Task, then the notification *)
Theorem C15_child_end_hands_over_in_the_same_invocation : forall w c clog cl ok q w' e,
  lookup c (pend w) = Some q -> cstep w (IChildEnd c clog cl ok) = Some (w', e) ->
  done w' = done w ++ [(q_task q, VChild c ok)] /\ lookup c (pend w') = None /\ lookup c (kids w') = Some (CEnded ok) /\
  exists pre, e = pre ++ [XClearTimer (q_timer q)] ++ hist_if (q_plog q) (XHist (q_parent q) (if ok then KSucceeded else KFailed)) ++ [XAck (q_task q); XNotify c ok].
Proof.
  intros w c clog cl ok q w' e L H. cbn [cstep] in H. apply child_step_inv in H as (a0 & pre & _ & H).
  rewrite L in H. inversion H; subst; cbn [done pend kids].
  split; [reflexivity|split; [apply lookup_remove_same|split; [apply lookup_set_same|]]].
  exists (pre ++ hist_if clog (XEnd c ok)). rewrite <- !app_assoc. reflexivity.
Qed.

(* a fire-and-forget launch completes its Task in the same handler invocation, after the start event has been published *)
Theorem C15_async_launch_completes_at_once : forall w t p plog c n w' e,
  cstep w (ILaunch t p plog FAsync c false n) = Some (w', e) ->
  done w' = done w ++ [(t, VLaunched c)] /\ pend w' = pend w /\ exists mid_, e = XStart c true :: mid_ ++ [XAck t].
Proof.
  intros w t p plog c n w' e H. unfold cstep in H. cbn [negb andb] in H.
  destruct (lookup c (kids w)); cbn in H; [discriminate|]. inversion H; subst; cbn.
  split; [reflexivity|split; [reflexivity|]]. eexists. rewrite <- app_assoc. reflexivity.
Qed.

(* when the launching Task times out or is cancelled while its child is blocked, the timer the child is blocked on is cleared and
   the child ends FAILED in the same handler invocation; for the timeout it is also stated that no step of the child is enabled afterwards *)
Theorem C15_timeout_cancels_blocked_child : forall w n clog own c q m,
  find_by_timer n (pend w) = Some (c, q) -> lookup c (kids w) = Some (CBlocked m) ->
  exists w' e, cstep w (ITimeout n clog own) = Some (w', e) /\
    In (XClearTimer m) e /\ In (XNotify c false) e /\ lookup c (kids w') = Some (CEnded false) /\ lookup c (pend w') = None /\
    In (q_task q, VTimeout) (done w') /\
    (forall cl b, cstep w' (IChildMove c cl b) = None) /\ (forall cg cl ok, cstep w' (IChildEnd c cg cl ok) = None).
Proof.
  intros w n clog own c q m F K. unfold cstep. rewrite F. unfold cancel_child; cbn [kids armed]. rewrite K.
  eexists; eexists; split; [reflexivity|]. cbn [pend kids done].
  (* the memberships are read off the lists; left are the child's record, its request and the two disabled steps *)
  repeat split; try (rewrite !in_app_iff; cbn [In]; auto 10; fail).
  - apply lookup_set_same.
  - apply lookup_remove_same.
  - intros cl b. rewrite lookup_set_same. reflexivity.
  - intros cg cl ok. rewrite lookup_set_same. reflexivity.
Qed.

Theorem C15_termination_cancels_blocked_child : forall w t clog c q m,
  find_by_task t (pend w) = Some (c, q) -> lookup c (kids w) = Some (CBlocked m) ->
  exists w' e, cstep w (ICancel t clog) = Some (w', e) /\
    In (XClearTimer (q_timer q)) e /\ In (XClearTimer m) e /\ In (XNotify c false) e /\
    lookup c (kids w') = Some (CEnded false) /\ lookup c (pend w') = None /\ In (q_task q, VTerminated) (done w').
Proof.
  intros w t clog c q m F K. unfold cstep. rewrite F. unfold cancel_child; cbn [kids armed]. rewrite K.
  eexists; eexists; split; [reflexivity|]. cbn [pend kids done].
  (* as above: left are the child's record and its request *)
  repeat split; try (rewrite !in_app_iff; cbn [In]; auto 10; fail).
  - apply lookup_set_same.
  - apply lookup_remove_same.
Qed.

(* a redelivered launch publishes no second start event, a first delivery uses a name nobody has used *)
Theorem C15_every_child_started_once : forall l w, crun cinit l = Some w -> NoDup (map fst (started w)).
Proof. intros l w R. apply (ci_started l w (cinv_run l w R)). Qed.

(* every armed timer of the protocol belongs to a pending request or to a child that is blocked on it, so once no request is pending
   and every child has ended none is left armed (the drain clause of C03 for child launches).  For runs without redelivered launches:
   a redelivered synchronous launch arms a second timer for its Task and the request forgets the first *)
Theorem C15_armed_timers_have_owners : forall l w n,
  Forall first_delivery l -> crun cinit l = Some w -> In n (armed w) -> owned w n.
Proof. intros l w n F R. exact (armed_ok_run l w R F n). Qed.

Theorem C15_no_timer_left_once_all_has_ended : forall l w,
  Forall first_delivery l -> crun cinit l = Some w -> pend w = [] ->
  (forall c ph, lookup c (kids w) = Some ph -> exists ok, ph = CEnded ok) -> armed w = [].
Proof.
  intros l w F R P K. destruct (armed w) as [|n r] eqn:A; [reflexivity|exfalso].
  assert (Hn : In n (armed w)) by (rewrite A; now left).
  destruct (C15_armed_timers_have_owners l w n F R Hn) as [(c & q & L & _)|(c & L)].
  - rewrite P in L. discriminate.
  - destruct (K c _ L) as [ok E]. discriminate.
Qed.

(* known finding F34, as a statement about the model: the engine restarts while a synchronous child is running; the child ends before
   the parent's redelivered Task event has registered its request again: the Task is pending, its child is terminal, nothing was
   handed over, and no step of the child can ever do it *)
Theorem C15_child_end_before_redelivered_launch_refuted :
  exists w1 w3, crun cinit [ILaunch 5 0 true FSync 1 false 9] = Some w1 /\
                crun (crash w1) [IChildEnd 1 true false true; ILaunch 5 0 true FSync 1 true 10] = Some w3 /\
                lookup 1 (kids w3) = Some (CEnded true) /\ (exists q, lookup 1 (pend w3) = Some q /\ q_task q = 5) /\ done w3 = [] /\
                (forall cg cl ok, cstep w3 (IChildEnd 1 cg cl ok) = None).
Proof.
  eexists; eexists. split; [reflexivity|]. split; [reflexivity|]. cbn. repeat split. eexists; split; reflexivity.
Qed.

(* non-vacuity: a run with a synchronous launch, a blocked child, a timeout; and one in which the child's record is handed over *)
Example C15_child_runs_exist :
  (exists w, crun cinit [ILaunch 5 0 true FSync 1 false 9; IChildMove 1 false (Some 10); ITimeout 9 true true] = Some w /\ In (5, VTimeout) (done w)) /\
  (exists w, crun cinit [ILaunch 5 0 true FSync 1 false 9; IChildMove 1 false (Some 10); IChildEnd 1 true true true] = Some w /\ In (5, VChild 1 true) (done w)).
Proof. split; eexists; (split; [reflexivity|cbn; auto]). Qed.

Print Assumptions C15_callback_completes_exactly_its_task.
Print Assumptions C15_foreign_token_affects_no_task.
Print Assumptions C15_completed_at_most_once.
Print Assumptions C15_field_names_keep_their_tail.
Print Assumptions C15_documented_names.
Print Assumptions C15_child_record_only_from_a_terminal_child.
Print Assumptions C15_terminal_child_leaves_no_task_pending.
Print Assumptions C15_child_record_goes_to_the_launching_task.
Print Assumptions C15_launch_completed_at_most_once.
Print Assumptions C15_child_end_hands_over_in_the_same_invocation.
Print Assumptions C15_async_launch_completes_at_once.
Print Assumptions C15_timeout_cancels_blocked_child.
Print Assumptions C15_termination_cancels_blocked_child.
Print Assumptions C15_child_end_before_redelivered_launch_refuted.
Print Assumptions C15_every_child_started_once.
Print Assumptions C15_armed_timers_have_owners.
Print Assumptions C15_no_timer_left_once_all_has_ended.
