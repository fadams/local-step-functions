(* C11 - All observability surfaces tell the same story about an execution.
   The agreement theorems are about Model/Protocol.v (machines without fan-out; every schedule, every
   decision, any number of executions); harness/check_C11.py compares record, notifications and history
   of real executions after every step inside Coq, and checks every published notification
   (subject, CloudWatch shape, milliseconds vs the record's seconds) against Spec/C11Oracle.v. *)
From Coq Require Import List ZArith.
Import ListNotations.
From LSF Require Import TraceSpec Protocol ProtocolProofs C11Oracle C02 C09.

(* the stored status is, at every moment, the last status that was notified *)
Theorem C11_record_is_last_notification : forall kind s0 starts w effs x,
  reachable kind s0 starts w effs -> get_status x (statuses w) = last (map Some (notes_of x effs)) None.
Proof. exact C02_record_is_last_notification. Qed.

(* the history carries a terminal event iff the terminal notification was sent, and of the same status *)
Theorem C11_history_agrees_with_notifications : forall kind s0 starts w effs x,
  reachable kind s0 starts w effs -> hist_agrees x effs = true.
Proof. exact C09_history_agrees_with_status. Qed.

(* each status change is published exactly once: RUNNING, then at most one terminal status *)
Theorem C11_each_status_published_once : forall kind s0 starts w effs x,
  reachable kind s0 starts w effs -> notes_pattern_ok (notes_of x effs) = true.
Proof. exact C02_notifications_once. Qed.

(* the milliseconds in a notification are the record's seconds, truncated: within one millisecond and monotone *)
Theorem C11_milliseconds_bounds : forall k : Z, (64 * to_ms k <= 1000 * k < 64 * (to_ms k + 1))%Z.
Proof. intros k. unfold to_ms. rewrite (Z.mul_comm 1000 k). split; [apply Z.mul_div_le|apply Z.mul_succ_div_gt]; reflexivity. Qed.
Theorem C11_milliseconds_monotone : forall a b : Z, (a <= b)%Z -> (to_ms a <= to_ms b)%Z.
Proof. intros a b H. apply Z.div_le_mono; [reflexivity|]. apply Z.mul_le_mono_nonneg_r; [discriminate|exact H]. Qed.

Print Assumptions C11_record_is_last_notification.
Print Assumptions C11_history_agrees_with_notifications.
Print Assumptions C11_each_status_published_once.
Print Assumptions C11_milliseconds_bounds.
Print Assumptions C11_milliseconds_monotone.
