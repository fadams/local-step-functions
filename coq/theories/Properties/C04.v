(* C04 - In-progress executions survive an engine crash and restart.
   The theorems are about the crash operator on the protocol model (Proofs/ProtocolProofs.v): the crash itself
   loses no carrier and every redelivered event has an enabled step.  What happens after the restart (same
   outcome, no second task request, replies matched) is decided on the real engine: harness/check_C04.py
   crashes and restarts it at every point between two handler invocations and after individual broker
   operations inside handlers, for a corpus of scenarios, and evaluates Spec/C04Oracle.v in Coq. *)
From Coq Require Import List Lia.
Import ListNotations.
From LSF Require Import TraceSpec Protocol ProtocolProofs.

(* the crash moves every held event back to the queue and touches nothing else *)
Theorem C04_crash_loses_no_carrier : forall w x,
  tokens (crash w) x = tokens w x /\ cntx x (hevents (crash w)) = 0 /\
  statuses (crash w) = statuses w /\ notes (crash w) = notes w /\ hist (crash w) = hist w /\ acked (crash w) = acked w /\
  (forall m, In m (live_ids (crash w)) <-> In m (live_ids w)).
Proof.
  intros w x. unfold tokens, live_ids. cbn [crash queue held hevents map]. rewrite cntx_app, map_app, app_nil_r.
  split; [cbn; lia|]. do 5 (split; [reflexivity|]). intros m. rewrite !in_app_iff. tauto.
Qed.

(* whatever is queued can be delivered: while an event is queued some step is enabled *)
Theorem C04_redelivered_events_can_be_handled : forall kind s0 w e,
  In e (queue w) -> exists i w' effs, step kind s0 w i = Some (w', effs).
Proof.
  intros kind s0 w e He. destruct (find_event_some _ _ He) as (e' & Hf). destruct (deliver_enabled kind s0 w _ _ Hf) as (d & n & H). eauto.
Qed.

(* so if x had a carrier before the crash, some step is enabled after it *)
Theorem C04_carried_execution_survives_crash : forall kind s0 w x,
  1 <= tokens w x -> exists i w' effs, step kind s0 (crash w) i = Some (w', effs).
Proof.
  intros kind s0 w x H. destruct (C04_crash_loses_no_carrier w x) as (T & Hh & _). rewrite <- T in H. unfold tokens in H. rewrite Hh in H.
  destruct (cntx_pos_ex x (queue (crash w))) as (e & He & _); [lia|]. exact (C04_redelivered_events_can_be_handled kind s0 (crash w) e He).
Qed.

(* with the invariant of reachable worlds: every RUNNING execution has exactly one carrier, so it has one after a crash *)
Theorem C04_running_executions_keep_their_carrier : forall kind s0 starts w effs x,
  reachable kind s0 starts w effs -> get_status x (statuses w) = Some Running -> tokens (crash w) x = 1.
Proof.
  intros kind s0 starts w effs x R St. pose proof (winv_tokens w x (winv_run _ _ _ _ _ R)) as T. rewrite St in T.
  destruct (C04_crash_loses_no_carrier w x) as (E & _). rewrite E. exact T.
Qed.

Print Assumptions C04_crash_loses_no_carrier.
Print Assumptions C04_redelivered_events_can_be_handled.
Print Assumptions C04_carried_execution_survives_crash.
Print Assumptions C04_running_executions_keep_their_carrier.
