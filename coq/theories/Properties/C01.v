(* C01 - Executions compute what the Amazon States Language prescribes.
   Spec/AslSem.v is an executable big-step semantics; every run of harness/check_C01.py
   compares real executions (canonical schedule) with it inside Coq.  The theorems below
   fix what that semantics says about the clauses of the property; that the engine's
   event-driven execution refines AslSem is established by correspondence only (see DESIGN.md). *)
From LSF Require Import PyStr Json PathSpec Paths Template Choice AslSem.
Open Scope string_scope.

(* one step of eval_state on a state whose Type is known: the comparisons with the type names
   compute, and of the eight branches one is left.  The rewrite goes through the whole body of
   eval_state; nothing after it does. *)
Ltac state_of_type Ht :=
  cbn [eval_state]; rewrite Ht; lazy beta iota delta [String.eqb Ascii.eqb Bool.eqb orb].

(* a Pass state: InputPath, then Parameters, then Result (or, without one, what Parameters gave),
   then ResultPath into the RAW input, then OutputPath - in that order *)
Theorem C01_pass_applies_filters_in_order : forall orc f st name data ctx cnt input params out ip,
  obj_get st "Type" = Some (JStr "Pass") ->
  field_path st "InputPath" = Some ip ->
  apply_path_m data ctx ip = Some (Ok input) ->
  eval_template TF input ctx (obj_get st "Parameters") = Some (Ok params) ->
  merge st data ctx (match obj_get st "Result" with Some r => r | None => params end) = Some (Ok out) ->
  eval_state orc (S f) st name data ctx cnt =
  (if truthy (match obj_get st "End" with Some b => b | None => JBool false end) then SEnd out
   else match obj_get st "Next" with Some n => SNext n out | None => caught_or_failed st data ctx "States.Runtime" end, cnt).
Proof.
  intros orc f st name data ctx cnt input params out ip Ht Hip Hin Hp Hm.
  state_of_type Ht. rewrite Hip, Hin. unfold opt_template. rewrite Hp. unfold finish. rewrite Hm.
  destruct (truthy _); [reflexivity|]. destruct (obj_get st "Next"); reflexivity.
Qed.

Theorem C01_fail_reports_its_error : forall orc f st name data ctx cnt e,
  obj_get st "Type" = Some (JStr "Fail") -> obj_get st "Error" = Some (JStr e) ->
  eval_state orc (S f) st name data ctx cnt = (SFail e, cnt).
Proof. intros orc f st name data ctx cnt e Ht He. state_of_type Ht. rewrite He. reflexivity. Qed.

(* a Succeed state ends the (sub)machine successfully with OutputPath(InputPath(raw)) *)
Theorem C01_succeed_ends : forall orc f st name data ctx cnt ip op input out,
  obj_get st "Type" = Some (JStr "Succeed") ->
  field_path st "InputPath" = Some ip -> apply_path_m data ctx ip = Some (Ok input) ->
  field_path st "OutputPath" = Some op -> apply_path_m input ctx op = Some (Ok out) ->
  eval_state orc (S f) st name data ctx cnt = (SEnd out, cnt).
Proof.
  intros orc f st name data ctx cnt ip op input out Ht Hip Hin Hop Hout.
  state_of_type Ht. rewrite Hip, Hin, Hop, Hout. reflexivity.
Qed.

(* a Choice state goes where the rules of C14 say *)
Theorem C01_choice_follows_rules : forall orc f st name data ctx cnt ip input,
  obj_get st "Type" = Some (JStr "Choice") ->
  field_path st "InputPath" = Some ip -> apply_path_m data ctx ip = Some (Ok input) ->
  eval_state orc (S f) st name data ctx cnt =
  (match choice_state st data ctx with ChNext n out => SNext n out | ChFail e => SFail e | ChOut => SOut end, cnt).
Proof.
  intros orc f st name data ctx cnt ip input Ht Hip Hin.
  state_of_type Ht. rewrite Hip, Hin. destruct (choice_state st data ctx); reflexivity.
Qed.

(* a two-state machine evaluated by the semantics: Parallel yields the branch outputs in branch order,
   Map the iteration outputs in item order (a computed instance; the general statement is the definition) *)
Example C01_fanout_in_order :
  run_execution 30 []
    (JObj [("StartAt", JStr "P"); ("States", JObj [
       ("P", JObj [("Type", JStr "Parallel"); ("Next", JStr "M"); ("ResultPath", JStr "$.p");
                   ("Branches", JArr [JObj [("StartAt", JStr "A"); ("States", JObj [("A", JObj [("Type", JStr "Pass"); ("Result", JStr "first"); ("End", JBool true)])])];
                                      JObj [("StartAt", JStr "B"); ("States", JObj [("B", JObj [("Type", JStr "Pass"); ("Result", JStr "second"); ("End", JBool true)])])]])]);
       ("M", JObj [("Type", JStr "Map"); ("ItemsPath", JStr "$.items"); ("End", JBool true); ("ResultPath", JStr "$.m");
                   ("Iterator", JObj [("StartAt", JStr "I"); ("States", JObj [("I", JObj [("Type", JStr "Pass"); ("Parameters", JObj [("v.$", JStr "$")]); ("End", JBool true)])])])])])])
    (JObj [("items", JArr [JInt 3; JInt 1; JInt 2])]) (JObj [])
  = XSucceeded (JObj [("items", JArr [JInt 3; JInt 1; JInt 2]); ("p", JArr [JStr "first"; JStr "second"]);
                      ("m", JArr [JObj [("v", JInt 3)]; JObj [("v", JInt 1)]; JObj [("v", JInt 2)]])]).
Proof. vm_compute. reflexivity. Qed.

Print Assumptions C01_pass_applies_filters_in_order.
Print Assumptions C01_fail_reports_its_error.
Print Assumptions C01_succeed_ends.
Print Assumptions C01_choice_follows_rules.
