(* C13 - Payload templates and intrinsic functions evaluate as specified, fail cleanly.
   Model/Template.v is written by hand against evaluate_payload_template (pinned by
   digest, Proofs/Pins_Paths_gen.v) and compared with it on every run. *)
From LSF Require Import PyStr Json PathSpec Paths Template IntrinsicSpec TemplateProofs TokenizerProofs Pins_Paths_gen.
Open Scope string_scope.

(* a template in which nothing is to be evaluated (no_dollar) comes out as it is, at any depth *)
Theorem C13_template_literal_copy : forall fuel input ctx t,
  is_container t = true -> json_wf t = true -> no_dollar t = true -> clone fuel input ctx t = Some (Ok t).
Proof.
  intros fuel input ctx. induction t as [| | | | |l IH|kv IH] using json_ind'; intros Hc Hwf Hnd; try discriminate.
  - rewrite clone_arr. apply items_id with (acc := []).
    cbn [json_wf no_dollar] in Hwf, Hnd. rewrite forallb_forall in Hwf, Hnd. rewrite Forall_forall in *.
    intros x Hin. specialize (IH x Hin). specialize (Hwf x Hin). specialize (Hnd x Hin).
    unfold item_step. destruct x as [| | | |s| |]; try reflexivity; try exact (IH eq_refl Hwf Hnd).
    (* left: a string, which no_dollar says does not end in ".$" *)
    cbn [is_container]. unfold dollar_key in Hnd. destruct (strip_dollar s); [discriminate|reflexivity].
  - apply json_wf_members in Hwf as [Hk Hwf]. apply no_dollar_members in Hnd.
    rewrite clone_obj. apply members_id with (acc := []); [|exact Hk].
    rewrite Forall_forall in *. intros [k x] Hin.
    specialize (IH _ Hin). specialize (Hwf _ Hin). specialize (Hnd _ Hin). cbn [fst snd] in *.
    apply andb_true_iff in Hnd as [Hd Hnd]. unfold member_step. destruct (is_container x).
    + rewrite (IH eq_refl Hwf Hnd). reflexivity.
    + unfold dollar_key in Hd. destruct (strip_dollar k); [discriminate|reflexivity].
Qed.

(* a template that is an object or an array never fails with anything but States.IntrinsicFailure
   or a path failure *)
Theorem C13_template_fails_cleanly : forall fuel input ctx t e,
  is_container t = true -> clone fuel input ctx t = Some (Err e) -> e <> PyOther.
Proof. intros fuel input ctx t e Hc. apply clean_err, clone_clean, Hc. Qed.

Theorem C13_intrinsic_fails_cleanly : forall fuel input ctx text e,
  eval_intrinsic fuel input ctx text = Some (Err e) -> e <> PyOther.
Proof. intros fuel input ctx text. apply clean_err, eval_intrinsic_clean. Qed.

(* arguments - atoms, strings containing commas, parentheses and escaped apostrophes, and calls
   nested to any depth - are split back into exactly what was written *)
Theorem C13_arguments_parsed_correctly : forall args, args <> [] -> Forall top_ok args ->
  split_args (join_commas (map render_arg args)) = Some (map render_arg args).
Proof. intros args Hne Hok. exact (scan_rendered_args args Hne Hok "" [] (fun t => eq_refl)). Qed.

(* StringSplit on any separator characters: no piece contains a separator and the pieces,
   with the separators put back, rebuild the subject *)
Theorem C13_string_split : forall d seps, seps <> "" ->
  intrinsic "StringSplit" [JStr d; JStr seps] = tok (JArr (split_on seps d "")) /\
  split_ok d seps (JArr (split_on seps d "")) = true.
Proof.
  intros d seps Hs. split.
  - unfold intrinsic. cbn. destruct (String.eqb_spec seps ""); [contradiction|reflexivity].
  - unfold split_ok. destruct (split_on_spec seps d "" eq_refl) as [H1 H2]. rewrite H1, H2.
    cbn [append]. rewrite String.eqb_refl. reflexivity.
Qed.

(* ArrayPartition: the parts concatenate to the input, each of n items except a last of 1..n *)
Theorem C13_array_partition : forall l n, (0 < n)%Z ->
  intrinsic "ArrayPartition" [JArr l; JInt n] = tok (JArr (chunks (length l) (Z.to_nat n) l)) /\
  partition_ok l (Z.to_nat n) (JArr (chunks (length l) (Z.to_nat n) l)) = true.
Proof.
  intros l n Hn. split.
  - unfold intrinsic. cbn. destruct (Z.ltb_spec 0 n); [reflexivity|lia].
  - unfold partition_ok. rewrite all_arrays_chunks, concat_parts, json_eqb_refl by lia.
    apply (sizes_parts (Z.to_nat n)). lia.
Qed.

Example C13_hypotheses_satisfiable :
  no_dollar (JObj [("a", JArr [JInt 1; JStr "x"]); ("b", JObj [("c", JNull)])]) = true /\
  eval_template 50 (JObj [("v", JInt 7)]) (JObj [])
     (Some (JObj [("lit", JStr "$.v"); ("x.$", JStr "States.Array(States.MathAdd($.v, 1), 'a,b', States.Array('it\'s'))")]))
  = Some (Ok (JObj [("lit", JStr "$.v"); ("x", JArr [JInt 8; JStr "a,b"; JArr [JStr "it's"]])])).
Proof. split; vm_compute; reflexivity. Qed.

Print Assumptions C13_template_literal_copy.
Print Assumptions C13_template_fails_cleanly.
Print Assumptions C13_intrinsic_fails_cleanly.
Print Assumptions C13_arguments_parsed_correctly.
Print Assumptions C13_string_split.
Print Assumptions C13_array_partition.
