(* C10 - The state-machine and execution API behaves like a simple keyed store.
   Spec/ApiSpec.v is the reference model: two maps from ARN to record and one decision list per action.
   The theorems hold for every state of the maps and every request; harness/check_C10.py replays random
   call sequences against both HTTP front ends on the model inside Coq (every response, both stores after
   every call). *)
From Coq Require Import List ZArith String.
Import ListNotations.
From LSF Require Import PyStr Json ApiSpec ApiProofs.
Open Scope string_scope.

(* a request that is answered with an error leaves every stored record exactly as it was *)
Theorem C10_error_leaves_state : forall s q, is_error (snd (api_step s q)) = true -> fst (api_step s q) = s.
Proof. intros s q. destruct (api_step_effect s q); cbn; intros E; first [reflexivity | discriminate E]. Qed.

(* no request is answered with an internal error *)
Theorem C10_no_internal_error : forall s q, snd (api_step s q) <> RErr "InternalError".
Proof.
  intros s q. destruct (api_step_effect s q) as [| | | | |r E]; cbn [snd]; try discriminate.
  intros ->. discriminate E.
Qed.

(* an ARN names at most one record, whatever is called *)
Theorem C10_one_record_per_arn : forall s q, wf s -> wf (fst (api_step s q)).
Proof.
  intros s q W. unfold wf in *. destruct (api_step_effect s q); cbn [fst sms]; auto using sm_put_nodup, sm_del_nodup.
Qed.

(* deletes are visible at once and touch nothing else *)
Theorem C10_delete_visible : forall s q a,
  wf s -> action q = "DeleteStateMachine" -> p q "stateMachineArn" = Some (JStr a) -> snd (api_step s q) = REmpty ->
  sm_find a (sms (fst (api_step s q))) = None /\ forall b, b <> a -> sm_find b (sms (fst (api_step s q))) = sm_find b (sms s).
Proof.
  intros s q a W _ P. destruct (api_step_effect s q) as [| | |a' P'| |r R]; cbn [fst snd sms]; intros E; try discriminate E.
  - assert (a' = a) as -> by congruence.
    split; [apply sm_find_del_same, W | intros b N; apply sm_find_del_other; congruence].
  - subst r. discriminate R.
Qed.

(* a created definition is described back unchanged *)
Theorem C10_create_then_describe : forall s q arn created,
  action q = "CreateStateMachine" -> snd (api_step s q) = ROk (JObj [("creationDate", created); ("stateMachineArn", JStr arn)]) ->
  exists r d, sm_find arn (sms (fst (api_step s q))) = Some r /\ check_definition q = Some d /\ sm_def r = d /\
              forall q2, action q2 = "DescribeStateMachine" -> p q2 "stateMachineArn" = Some (JStr arn) -> valid_states_arn "stateMachine" arn = true ->
                         snd (api_step (fst (api_step s q)) q2) = ROk (sm_describe r (dumps_or d)).
Proof.
  intros s q arn created A.
  destruct (api_step_effect s q) as [| r D | | | |r R]; cbn [fst snd sms]; try contradiction; intros E; try discriminate E.
  - injection E as _ <-. exists r, (sm_def r). rewrite sm_find_put_same. refine (conj eq_refl (conj D (conj eq_refl _))).
    intros q2 A2 P2 V2. rewrite (api_step_describe _ q2 _ r A2 P2 V2); [reflexivity | apply sm_find_put_same].
  - subst r. discriminate R.
Qed.

(* lists enumerate exactly the live set *)
Theorem C10_list_is_the_live_set : forall s q kv, action q = "ListStateMachines" -> params q = Some kv ->
  api_step s q = (s, ROk (JObj [("stateMachines", JArr (map sm_summary (sms s)))])).
Proof. intros s [act par dp ipo nw wl] kv A P. cbn [action params] in A, P. subst act par. reflexivity. Qed.

(* create, update, create again on the model: the update changes only roleArn and updateDate, the second create is refused *)
Example C10_example :
  let def := JObj [("StartAt", JStr "P"); ("States", JObj [("P", JObj [("Type", JStr "Pass"); ("End", JBool true)])])] in
  let mk a kv t := {| action := a; params := Some kv; def_parse := Some def; input_parse_ok := true; now := t; with_logging := true |} in
  let arn := "arn:aws:states:local:42:stateMachine:m" in
  let s1 := fst (api_step {| sms := []; exs := [] |} (mk "CreateStateMachine" [("name", JStr "m"); ("roleArn", JStr "arn:aws:iam::42:role/r"); ("definition", JStr "{...}")] 5%Z)) in
  let s2 := fst (api_step s1 (mk "UpdateStateMachine" [("stateMachineArn", JStr arn); ("roleArn", JStr "arn:aws:iam::42:role/other")] 9%Z)) in
  option_map (fun r => (sm_def r, sm_role r, sm_created r, sm_updated r)) (sm_find arn (sms s2)) = Some (def, "arn:aws:iam::42:role/other", 5%Z, 9%Z) /\
  snd (api_step s2 (mk "CreateStateMachine" [("name", JStr "m"); ("roleArn", JStr "arn:aws:iam::42:role/r"); ("definition", JStr "{...}")] 10%Z)) = RErr "StateMachineAlreadyExists".
Proof. vm_compute. split; reflexivity. Qed.

Print Assumptions C10_error_leaves_state.
Print Assumptions C10_no_internal_error.
Print Assumptions C10_one_record_per_arn.
Print Assumptions C10_delete_visible.
Print Assumptions C10_create_then_describe.
Print Assumptions C10_list_is_the_live_set.
