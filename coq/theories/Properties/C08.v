(* C08 - Waits and timeouts fire at the right instant, never early.
   Instants are integer microseconds; Model/Timestamp.v and Model/Deadline.v are tied
   to parse_rfc3339_datetime and to the Wait/Task handlers by harness/check_C08.py
   (every offset, virtual clock).  That an execution timeout cannot be retried or
   caught is C07 (States.ExecutionTimeout is in the unrecoverable set).  Importing Pins_Time_gen makes the
   digest of the parser an obligation of this file. *)
From LSF Require Import PyStr Json Paths Timestamp Deadline TimeProofs Pins_Time_gen.
Open Scope string_scope.

(* every UTC offset from -23:59 to +23:59 (all 2879, the bound is in the statement)
   denotes the instant of the same date-time in Z notation minus the offset *)
Theorem C08_offset_exact : forall d neg h m naive,
  h < 24 -> m < 60 ->
  rstrip (lstrip (d ++ offset_text neg h m)) = d ++ offset_text neg h m ->
  rstrip (lstrip (d ++ "Z")) = d ++ "Z" ->
  parse_rfc3339 (d ++ "Z") = TsOk naive ->
  parse_rfc3339 (d ++ offset_text neg h m) = TsOk (naive - signed_minutes neg h m * 60000000).
Proof.
  intros d neg h m naive Hh Hm Hs1 Hs2 Hz.
  rewrite (parse_rfc3339_app d "Z" "Z" Hs2 (last_char_app d "Z" "") eq_refl) in Hz. change (offset_minutes _) with (Some 0%Z) in Hz.
  (* an offset text ends with a digit, not with Z, and has six characters *)
  assert (last_char (d ++ offset_text neg h m) = Some (ascii_of_nat (48 + m mod 10))) as Hc by apply last_char_app.
  assert (ascii_eqb (ascii_of_nat (48 + m mod 10)) "Z" = false) as Hd by (apply digit_not_Z, Nat.mod_upper_bound; lia).
  rewrite (parse_rfc3339_app d _ _ Hs1 Hc), Hd by (rewrite Hd; reflexivity).
  rewrite (offset_minutes_exact neg h m Hh Hm).
  destruct (parse_naive (if has_char "." d then d else d ++ ".0")); try discriminate.
  injection Hz as <-. f_equal. lia.
Qed.

(* a Wait never fires before its target; delivered on time it fires exactly at the
   target, delivered late (or redelivered) it fires at once *)
Theorem C08_wait_never_early : forall now started xt target,
  (target <= started + xt)%Z ->
  let '(t, _) := wait_fires now started xt target in
  (target <= t /\ now <= t /\ (now <= target -> t = target) /\ (target <= now -> t = now))%Z.
Proof. intros now started xt target H. rewrite wait_fires_spec. lia. Qed.

Theorem C08_wait_completes_before_deadline : forall now started xt target,
  (target < started + xt)%Z -> (now < started + xt)%Z ->
  snd (wait_fires now started xt target) = Completed.
Proof.
  intros now started xt target H Hn. rewrite wait_fires_spec. cbn [snd].
  destruct (Z.leb_spec (started + xt) (Z.max now target)); [lia|reflexivity].
Qed.

(* an execution running longer than its TimeoutSeconds is cut at the deadline *)
Theorem C08_wait_cut_by_execution_timeout : forall now started xt target,
  (started + xt < target)%Z ->
  wait_fires now started xt target = (Z.max now (started + xt), ExecutionTimeout).
Proof.
  intros now started xt target H. rewrite wait_fires_spec.
  destruct (Z.leb_spec (started + xt) (Z.max now target)); [f_equal|]; lia.
Qed.

(* a Task not completed TimeoutSeconds after entry times out exactly then (task timeout),
   unless the execution deadline comes first (execution timeout) *)
Theorem C08_task_times_out_at_deadline : forall now started xt entered tsecs,
  (entered + tsecs < started + xt)%Z -> (now < started + xt)%Z ->
  task_deadline now started xt entered tsecs = (Z.max now (entered + tsecs), TaskTimeout).
Proof.
  intros now started xt entered tsecs H Hn. rewrite task_deadline_spec.
  destruct (Z.leb_spec (started + xt) (Z.max now (entered + tsecs))); [|f_equal]; lia.
Qed.

Theorem C08_task_cut_by_execution_timeout : forall now started xt entered tsecs,
  (started + xt < entered + tsecs)%Z ->
  task_deadline now started xt entered tsecs = (Z.max now (started + xt), ExecTimeout).
Proof.
  intros now started xt entered tsecs H. rewrite task_deadline_spec.
  destruct (Z.leb_spec (started + xt) (Z.max now (entered + tsecs))); [f_equal|]; lia.
Qed.

Example C08_hypotheses_satisfiable :
  parse_rfc3339 "2023-11-14T22:13:20Z" = TsOk 1700000000000000%Z /\
  rstrip (lstrip ("2023-11-14T22:13:20" ++ offset_text true 3 30)) = "2023-11-14T22:13:20" ++ offset_text true 3 30 /\
  parse_rfc3339 "2023-11-14T22:13:20-03:30" = TsOk (1700000000000000 + 210 * 60000000)%Z /\
  wait_fires 10 0 100 50 = (50%Z, Completed) /\ wait_fires 70 0 100 50 = (70%Z, Completed).
Proof. repeat split; vm_compute; reflexivity. Qed.

Print Assumptions C08_offset_exact.
Print Assumptions C08_wait_never_early.
Print Assumptions C08_wait_completes_before_deadline.
Print Assumptions C08_wait_cut_by_execution_timeout.
Print Assumptions C08_task_times_out_at_deadline.
Print Assumptions C08_task_cut_by_execution_timeout.
