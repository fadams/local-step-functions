(* C19 - Work is routed to the right queue/instance; messages map faithfully to AMQP.
   Model/Routing.v: (A) the affinity system of shared / per-instance queues, (B) the expiration a sent message
   carries, (C) Destination.parse_address.  harness/check_C19.py compares (B) and (C) with both transports on
   generated inputs inside Coq and checks (A) on every delivery of runs with one to three engine instances. *)
From Coq Require Import List String ZArith Lia.
Import ListNotations.
From LSF Require Import PyStr Json Routing RoutingProofs.

(* every event and reply of an execution is handled by the one instance that took its start event, for every schedule *)
Theorem C19_affinity : forall starts l w, NoDup starts -> rrun (rinit starts) l = Some w ->
  forall x i j, In (x, i) (log w) -> In (x, j) (log w) -> i = j.
Proof. exact affinity. Qed.

(* whatever is on the fabric for an execution - later events, task requests, replies - is bound to the instance that started it *)
Theorem C19_requests_and_replies_are_bound_to_the_starter : forall starts l w, NoDup starts -> rrun (rinit starts) l = Some w ->
  forall m x j, In m (fabric w) -> msg_inst m = Some (x, j) -> owner_of x (owner w) = Some j.
Proof. intros starts l w Nd H. exact (a_bound w (ainv_run l _ _ (ainv_init starts Nd) H)). Qed.

(* a sent message carries no expiration or a non-negative integer one *)
Theorem C19_expiration_absent_or_nonnegative : forall e, match clamp_expiration e with None => e = ENone | Some z => (0 <= z)%Z end.
Proof. intros [| |n d]; cbn; [reflexivity|lia|]. destruct (Z.ltb_spec (Z.quot n (Z.pos d)) 0); lia. Qed.

Theorem C19_expiration_integer_part : forall n d, (0 <= n)%Z -> clamp_expiration (ENum n d) = Some (n / Z.pos d)%Z.
Proof.
  intros n d H. cbn. rewrite Z.quot_div_nonneg by lia. assert (0 <= n / Z.pos d)%Z by (apply Z.div_pos; lia).
  destruct (Z.ltb_spec (n / Z.pos d) 0); [lia|reflexivity].
Qed.

(* the address strings of the engine's two event queues (event_dispatcher.py) declare exactly a durable queue of that name
   (quorum when configured), no bindings, and an exclusive consumer exactly for the per-instance queue *)
Theorem C19_engine_addresses : forall quorum excl : bool,
  let parse := fun _ : string => Some (engine_options quorum excl) in
  match parse_address parse "asl_workflow_events-i1; {...}" with
  | Some d =>
      d_name d = "asl_workflow_events-i1"%string /\ obj_get (d_declare d) "durable" = Some (JBool true) /\
      obj_get (d_declare d) "arguments" = Some (if quorum then JObj [("x-queue-type", JStr "quorum")] else JNull) /\
      obj_get (d_link_subscribe d) "exclusive" = Some (JBool excl) /\ d_bindings d = JArr []
  | None => False
  end.
Proof. intros [] []; vm_compute; repeat split; reflexivity. Qed.

Print Assumptions C19_affinity.
Print Assumptions C19_requests_and_replies_are_bound_to_the_starter.
Print Assumptions C19_expiration_absent_or_nonnegative.
Print Assumptions C19_expiration_integer_part.
Print Assumptions C19_engine_addresses.
