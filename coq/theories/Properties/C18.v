(* C18 - Validator-accepted machines run; uninterpretable ones hurt only themselves.
   Spec/Wf.v: structural well-formedness and an abstraction of the engine's control flow that fails exactly
   where the engine reports an illegal state machine.  harness/check_C18.py mutates well-formed machines,
   runs the bundled validator and the engine (beside a healthy execution) and checks in Coq that whatever the
   validator accepts is well formed - and therefore, by the theorem, can never be illegal at run time. *)
From Coq Require Import List String.
Import ListNotations.
From LSF Require Import PyStr Json Wf WfProofs.
Open Scope string_scope.

(* a well-formed machine never runs into an illegal-machine failure: on any path, of any length, at any nesting depth *)
Theorem C18_well_formed_never_illegal : forall fuel d m name, wf d m = true -> has_state m name = true -> illegal fuel m name = false.
Proof.
  induction fuel as [|f IH]; intros d m name W Hs; [reflexivity|].
  unfold has_state in Hs. destruct (obj_get (states_of m) name) as [[| | | | | |st]|] eqn:E; try discriminate.
  destruct (wf_state _ _ _ _ W E) as [K Ksub].
  rewrite (illegal_state_ok _ _ _ _ E K).
  rewrite (existsb_none _ (targets st)) by (intros t Ht; exact (IH _ _ _ W (state_ok_targets _ _ _ K Ht))).
  rewrite andb_false_r, orb_false_r. apply existsb_none.
  (* the nested machines are well formed one level down, and start in one of their states *)
  intros b Hb. destruct (wf_start _ _ (Ksub b Hb)) as (s1 & -> & H1). exact (IH _ _ _ (Ksub b Hb) H1).
Qed.

Theorem C18_well_formed_runs_from_its_start : forall fuel d m s0, wf d m = true -> start_of m = Some s0 -> illegal fuel m s0 = false.
Proof.
  intros fuel d m s0 W S. destruct (wf_start _ _ W) as (s & S' & H). rewrite S in S'. injection S' as <-.
  exact (C18_well_formed_never_illegal fuel d m s0 W H).
Qed.

Theorem C18_deeper_fuel_accepts_more : forall d m, wf d m = true -> wf (S d) m = true.
Proof.
  induction d as [|d IH]; intros m H; [discriminate|].
  cbn [wf] in *. destruct (start_of m); [|discriminate]. apply andb_prop in H as [H1 H2]. rewrite H1. cbn [andb].
  rewrite forallb_forall in *. intros [k v] Hin. specialize (H2 _ Hin). cbn [snd] in *.
  destruct v; try discriminate. apply andb_prop in H2 as [K1 K2]. rewrite K1. cbn [andb].
  rewrite forallb_forall in *. auto.
Qed.

(* the hypotheses are met: a machine with a Choice, a Parallel and a Map nested to depth 2 is well formed *)
Example C18_example_wf :
  wf 3 [("StartAt", JStr "C");
        ("States", JObj [("C", JObj [("Type", JStr "Choice"); ("Choices", JArr [JObj [("Variable", JStr "$.a"); ("IsPresent", JBool true); ("Next", JStr "P")]]); ("Default", JStr "F")]);
                         ("P", JObj [("Type", JStr "Parallel"); ("End", JBool true);
                                     ("Branches", JArr [JObj [("StartAt", JStr "M"); ("States", JObj [("M", JObj [("Type", JStr "Map"); ("End", JBool true);
                                        ("Iterator", JObj [("StartAt", JStr "X"); ("States", JObj [("X", JObj [("Type", JStr "Pass"); ("End", JBool true)])])])])])]])]);
                         ("F", JObj [("Type", JStr "Fail")])])] = true.
Proof. reflexivity. Qed.

Example C18_example_illegal : illegal 3 [("StartAt", JStr "A"); ("States", JObj [("A", JObj [("Type", JStr "Pass"); ("Next", JStr "Nowhere")])])] "A" = true.
Proof. exact dangling_next_is_illegal. Qed.

Print Assumptions C18_well_formed_never_illegal.
Print Assumptions C18_well_formed_runs_from_its_start.
Print Assumptions C18_deeper_fuel_accepts_more.
