(* C03 - Events are acked once, after their consequences are issued; nothing leaks.
   Theorems about Model/Protocol.v (machines without fan-out, all schedules, all decisions,
   any number of executions); harness/check_C03.py replays real runs on the model and evaluates
   the monitors of Spec/TraceSpec.v on real traces, also of machines with fan-out. *)
From Coq Require Import List.
Import ListNotations.
From LSF Require Import TraceSpec Protocol ProtocolProofs.

(* in every handler invocation the acknowledgement is the last thing handed over: no publish,
   record or notification follows the acknowledgement of any event *)
Theorem C03_ack_after_consequences : forall kind s0 w i w' effs,
  step kind s0 w i = Some (w', effs) -> forall m, ack_then_nothing m effs = true.
Proof. intros kind s0 w i w' effs H. exact (shape_ack_last _ _ _ (step_shape _ _ _ _ _ _ H)). Qed.

(* no event is ever acknowledged twice, and an acknowledged event is neither queued nor held again *)
Theorem C03_acked_at_most_once : forall kind s0 starts w effs,
  reachable kind s0 starts w effs -> NoDup (acks_of effs) /\ forall m, In m (acks_of effs) -> ~ In m (live_ids w).
Proof.
  intros kind s0 starts w effs R. destruct (reachable_logs _ _ _ _ _ R) as (_ & _ & <-). exact (winv_acked w (winv_run _ _ _ _ _ R)).
Qed.

(* a RUNNING execution is carried by exactly one event (queued, or delivered and unacknowledged);
   a terminal execution by none: nothing of it is left unacknowledged *)
Theorem C03_carrier_conservation : forall kind s0 starts w effs x,
  reachable kind s0 starts w effs ->
  match get_status x (statuses w) with
  | Some Running => tokens w x = 1
  | Some _ => tokens w x = 0
  | None => tokens w x <= 1
  end.
Proof. intros kind s0 starts w effs x R. apply winv_tokens, (winv_run _ _ _ _ _ R). Qed.

(* stronger than C03_no_deadlock below: the enabled step is a handler invocation for an event of THAT execution: its
   queued event can be delivered, or the timer its held event waits for can fire (timers are unique: a second invariant) *)
Theorem C03_running_execution_is_carried_forward : forall kind s0 starts w effs x,
  reachable kind s0 starts w effs -> get_status x (statuses w) = Some Running ->
  exists i w' effs', step kind s0 w i = Some (w', effs') /\ moves w i x.
Proof.
  intros kind s0 starts w effs x R St. pose proof (winv_run _ _ _ _ _ R) as I. destruct (tinv_run _ _ _ _ _ R) as [Td _].
  apply (c_run (i_car I)), in_map_iff in St as (e & <- & He). apply in_app_or in He as [He|He].
  - pose proof (find_event_unique _ _ (proj2 (inv_nodup I)) He) as Hf. destruct (deliver_enabled kind s0 w _ _ Hf) as (d & k & w' & effs' & H).
    exists (IDeliver (e_id e) d k), w', effs'. split; [exact H|]. cbn [moves]. rewrite Hf. reflexivity.
  - apply in_map_iff in He as ([e1 p] & <- & Hin).
    pose proof (find_by_timer_unique _ _ _ Td Hin) as Hf. destruct (fire_enabled kind s0 w _ _ _ Hf) as (d & n & w' & effs' & H).
    exists (IFire (timer_of p) d n), w', effs'. split; [exact H|]. cbn [moves]. rewrite Hf. reflexivity.
Qed.

(* the carrier can always move on: a queued event can be delivered, a held one has a timer that can fire *)
Theorem C03_no_deadlock : forall kind s0 starts w effs x,
  reachable kind s0 starts w effs -> get_status x (statuses w) = Some Running ->
  exists i w' effs', step kind s0 w i = Some (w', effs').
Proof.
  intros kind s0 starts w effs x R St.
  destruct (C03_running_execution_is_carried_forward kind s0 starts w effs x R St) as (i & w' & effs' & H & _). eauto.
Qed.

(* nothing leaks: once an execution is terminal no queued event and no delivered, unacknowledged event of it exists
   (the armed timers of the model are those of the held events, by definition of `tids`) ... *)
Theorem C03_nothing_left_of_terminal : forall kind s0 starts w effs x st,
  reachable kind s0 starts w effs -> get_status x (statuses w) = Some st -> st <> Running ->
  (forall e, In e (queue w) -> e_x e <> x) /\ (forall e p, In (e, p) (held w) -> e_x e <> x).
Proof.
  intros kind s0 starts w effs x st R S N. pose proof (i_car (winv_run _ _ _ _ _ R)) as C.
  split.
  - intros e He <-. exact (N (carrier_running e st C (in_or_app _ _ _ (or_introl He)) S)).
  - intros e p He%in_hevents <-. exact (N (carrier_running e st C (in_or_app _ _ _ (or_intror He)) S)).
Qed.

(* ... so when every execution that still has an event anywhere is terminal, the engine is drained: nothing queued, nothing
   unacknowledged, no timer armed *)
Theorem C03_all_terminal_drained : forall kind s0 starts w effs,
  reachable kind s0 starts w effs ->
  (forall e, In e (queue w ++ hevents w) -> exists st, get_status (e_x e) (statuses w) = Some st /\ st <> Running) ->
  queue w = [] /\ held w = [] /\ tids w = [].
Proof.
  intros kind s0 starts w effs R H. pose proof (i_car (winv_run _ _ _ _ _ R)) as C.
  assert (queue w ++ hevents w = []) as E.
  { apply incl_l_nil. intros e He. destruct (H e He) as (st & S & N). destruct N. exact (carrier_running e st C He S). }
  apply app_eq_nil in E as (Eq & Eh). apply map_eq_nil in Eh. unfold tids. rewrite Eh. auto.
Qed.

Print Assumptions C03_ack_after_consequences.
Print Assumptions C03_nothing_left_of_terminal.
Print Assumptions C03_all_terminal_drained.
Print Assumptions C03_acked_at_most_once.
Print Assumptions C03_carrier_conservation.
Print Assumptions C03_no_deadlock.
Print Assumptions C03_running_execution_is_carried_forward.
