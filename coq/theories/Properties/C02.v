(* C02 - Every execution ends exactly once and its terminal record never changes.
   Model/Protocol.v is the control plane of the engine for machines without fan-out;
   every theorem holds for every schedule of deliveries, timer expiries, worker answers and
   replies, every decision the data plane takes, and any number of concurrent executions.
   Each run of harness/check_C02.py replays real runs on the model (ProtocolCheck) and
   evaluates the monitors of Spec/TraceSpec.v on real traces, also of machines with fan-out. *)
From Coq Require Import List.
Import ListNotations.
From LSF Require Import TraceSpec Protocol ProtocolCheck ProtocolProofs C03.

(* one RUNNING notification, then at most one terminal notification, then nothing *)
Theorem C02_notifications_once : forall kind s0 starts w effs x,
  reachable kind s0 starts w effs -> notes_pattern_ok (notes_of x effs) = true.
Proof. intros kind s0 starts w effs x R. destruct (lifecycle _ _ _ _ _ x R) as [|r Q|[] r N Q]; try reflexivity. contradiction. Qed.

(* the stored status is the last status that was notified (None: never started) *)
Theorem C02_record_is_last_notification : forall kind s0 starts w effs x,
  reachable kind s0 starts w effs -> get_status x (statuses w) = last (map Some (notes_of x effs)) None.
Proof. intros kind s0 starts w effs x R. destruct (lifecycle _ _ _ _ _ x R); reflexivity. Qed.

(* once the terminal notification is out, no step notifies, logs or changes the record of that execution *)
Theorem C02_terminal_is_final : forall kind s0 starts w effs x i w' effs',
  reachable kind s0 starts w effs -> ended (notes_of x effs) = true -> step kind s0 w i = Some (w', effs') ->
  notes_of x effs' = [] /\ hist_of x effs' = [] /\ get_status x (statuses w') = get_status x (statuses w).
Proof.
  intros kind s0 starts w effs x i w' effs' R E Hs.
  (* the lifecycle also holds after the step, and the logs of an ended execution cannot be extended *)
  pose proof (lifecycle _ _ _ _ _ x (reachable_step _ _ _ _ _ _ _ _ R Hs)) as L'. rewrite notes_of_app, hist_of_app in L'.
  destruct (life_ended _ _ _ _ _ _ (lifecycle _ _ _ _ _ x R) E L') as (-> & -> & ->). auto.
Qed.

(* a RUNNING execution is never stuck: some step is enabled (so it cannot stay RUNNING at quiescence) *)
Theorem C02_running_can_move : forall kind s0 starts w effs x,
  reachable kind s0 starts w effs -> get_status x (statuses w) = Some Running ->
  exists i w' effs', step kind s0 w i = Some (w', effs').
Proof. exact C03_no_deadlock. Qed.

(* the hypotheses are met by a run of two concurrent executions, one ending SUCCEEDED and one FAILED *)
Theorem C02_reachable_is_inhabited :
  exists w effs, reachable (kind_fun [KTask; KWait; KSucceed]) 0
                   [{| e_id := 0; e_x := 0; e_state := None; e_retry := false |}; {| e_id := 1; e_x := 1; e_state := None; e_retry := false |}] w effs /\
                 get_status 0 (statuses w) = Some Succeeded /\ get_status 1 (statuses w) = Some Failed /\ queue w = [] /\ held w = [].
Proof. exact reachable_example. Qed.

Print Assumptions C02_notifications_once.
Print Assumptions C02_record_is_last_notification.
Print Assumptions C02_terminal_is_final.
Print Assumptions C02_running_can_move.
Print Assumptions C02_reachable_is_inhabited.
