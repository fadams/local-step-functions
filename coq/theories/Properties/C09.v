(* C09 - Execution history is a gap-free, ordered, faithful log.
   The shape theorems are about Model/Protocol.v (machines without fan-out, all schedules);
   numbering, timestamps, payloads, reverseOrder and EXPRESS are decided on the real API by
   harness/check_C09.py with the monitors of Spec/TraceSpec.v and Spec/C09Oracle.v (the last two theorems
   only say that those monitors accept numbering by position and an exact reverse). *)
From Coq Require Import List.
Import ListNotations.
From LSF Require Import TraceSpec Protocol ProtocolProofs C09Oracle C02.

(* the history of an execution begins with ExecutionStarted, has no second one, at most one terminal
   event, and nothing after it *)
Theorem C09_history_shape : forall kind s0 starts w effs x,
  reachable kind s0 starts w effs -> hist_shape_ok (hist_of x effs) = true.
Proof.
  intros kind s0 starts w effs x R. destruct (lifecycle _ _ _ _ _ x R) as [|r Q|st r N Q]; [reflexivity| |]; unfold hist_shape_ok;
    cbn [hkind_eqb nothing_after_terminal is_terminal_h andb]; rewrite ?existsb_app, (quiet_absent HExecutionStarted r Q eq_refl).
  - rewrite <- (app_nil_r r), nothing_after_quiet by exact Q. reflexivity.
  - rewrite nothing_after_quiet by exact Q. destruct st; [contradiction| |]; reflexivity.
Qed.

(* the terminal history event is there iff the terminal notification was sent, and is of the same kind *)
Theorem C09_history_agrees_with_status : forall kind s0 starts w effs x,
  reachable kind s0 starts w effs -> hist_agrees x effs = true.
Proof.
  intros kind s0 starts w effs x R. unfold hist_agrees. destruct (lifecycle _ _ _ _ _ x R) as [|r Q|st r N Q]; [reflexivity| |];
    cbn [existsb hkind_eqb status_eqb orb]; rewrite ?existsb_app, (quiet_absent HExecutionSucceeded r Q eq_refl), (quiet_absent HExecutionFailed r Q eq_refl); [reflexivity|].
  destruct st; [contradiction| |]; reflexivity.
Qed.

(* nothing is appended after the terminal event *)
Theorem C09_nothing_after_terminal : forall kind s0 starts w effs x i w' effs',
  reachable kind s0 starts w effs -> ended (notes_of x effs) = true -> step kind s0 w i = Some (w', effs') ->
  hist_of x effs' = [].
Proof. intros. eapply C02_terminal_is_final; eassumption. Qed.

(* numbering: ids 1..n with previousEventId = id - 1 is what numbering by position gives, for every list *)
Theorem C09_numbering_is_gap_free : forall (A : Type) (l : list A), numbered_ok (number_events l) = true.
Proof. intros A l. apply number_from_ok. Qed.

(* reverseOrder is the exact reverse: reversing twice gives the list back, for every list *)
Theorem C09_reverse_is_involutive : forall (A : Type) (l : list A), rev (rev l) = l.
Proof. exact rev_involutive. Qed.

Print Assumptions C09_history_shape.
Print Assumptions C09_history_agrees_with_status.
Print Assumptions C09_nothing_after_terminal.
Print Assumptions C09_numbering_is_gap_free.
Print Assumptions C09_reverse_is_involutive.
