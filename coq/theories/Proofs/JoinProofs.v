(* Model/Join.v.  What slot j holds after a list of deliveries depends only on whether j is among them (`deliver_in`,
   `deliver_notin`): order-independence comes to no more.  `collect` and the launch / finish step are each taken
   apart once (`collect_next_inv`, `jstep_inv`). *)
From Coq Require Import List Arith Bool Lia.
Import ListNotations.
From LSF Require Import Join.

Lemma set_nth_length {A} i (v : A) l : length (set_nth i v l) = length l.
Proof. revert i; induction l as [|x l IH]; intros [|i]; cbn; auto. Qed.

Lemma nth_set_same {A} i (v : A) l : i < length l -> nth_error (set_nth i v l) i = Some v.
Proof. revert i; induction l as [|x l IH]; intros [|i] H; cbn in *; try lia; auto. apply IH. lia. Qed.

Lemma nth_set_other {A} i j (v : A) l : i <> j -> nth_error (set_nth i v l) j = nth_error l j.
Proof. revert i j; induction l as [|x l IH]; intros [|i] [|j] H; cbn; auto; try lia. Qed.

(* how `all_some`, and `all_done` of Model/JoinCaught.v, are read slot by slot *)
Lemma forallb_nth_error {A} (f : A -> bool) l j x : forallb f l = true -> nth_error l j = Some x -> f x = true.
Proof. intros H E. apply (proj1 (forallb_forall f l) H). eapply nth_error_In. exact E. Qed.

Lemma all_some_map_Some {A} (vs : list A) : all_some (map Some vs) = true.
Proof. induction vs; [reflexivity|assumption]. Qed.

Lemma somes_map_Some {A} (vs : list A) : somes (map Some vs) = vs.
Proof. induction vs as [|v vs IH]; cbn; [reflexivity|]. f_equal. exact IH. Qed.

(* The branches in `order` deliver one after the other; branch i always writes f i into slot i.  So what slot j holds afterwards
   depends only on whether j is among them: this is all that order-independence comes to. *)
Definition deliver {A} (f : nat -> A) (order : list nat) (r : list (option A)) : list (option A) :=
  fold_left (fun r i => set_nth i (Some (f i)) r) order r.

Lemma deliver_cons {A} (f : nat -> A) i order r : deliver f (i :: order) r = deliver f order (set_nth i (Some (f i)) r).
Proof. reflexivity. Qed.

Lemma deliver_length {A} (f : nat -> A) order : forall r, length (deliver f order r) = length r.
Proof. induction order as [|i o IH]; intros r; [reflexivity|]. rewrite deliver_cons, IH. apply set_nth_length. Qed.

Lemma deliver_notin {A} (f : nat -> A) order j : ~ In j order -> forall r, nth_error (deliver f order r) j = nth_error r j.
Proof.
  induction order as [|i o IH]; intros N r; [reflexivity|].
  rewrite deliver_cons, IH by (intros F; apply N; right; exact F). apply nth_set_other. intros ->. apply N. left. reflexivity.
Qed.

Lemma deliver_in {A} (f : nat -> A) order j :
  In j order -> forall r, j < length r -> nth_error (deliver f order r) j = Some (Some (f j)).
Proof.
  induction order as [|i o IH]; intros I r L; [destruct I|]. rewrite deliver_cons.
  destruct (in_dec Nat.eq_dec j o) as [Io|No].
  - apply IH; [exact Io|rewrite set_nth_length; exact L].
  - destruct I as [->|Io]; [|contradiction]. rewrite deliver_notin by exact No. apply nth_set_same. exact L.
Qed.

(* writing the results of the branches in `order` into an array of n empty slots *)
Definition deliver_all {A} (n : nat) (vs : list A) (d : A) (order : list nat) : list (option A) :=
  fold_left (fun r i => set_nth i (Some (nth i vs d)) r) order (repeat None n).

Lemma deliver_all_eq {A} n (vs : list A) d order : deliver_all n vs d order = deliver (fun i => nth i vs d) order (repeat None n).
Proof. reflexivity. Qed.

(* once every branch has delivered - in whatever order, and however often - slot i holds branch i's output *)
Theorem deliver_all_full {A} (vs : list A) d order :
  (forall j, j < length vs -> In j order) -> deliver_all (length vs) vs d order = map Some vs.
Proof.
  intros H. rewrite deliver_all_eq.
  apply (nth_ext _ _ None (Some d)); rewrite deliver_length, repeat_length; [symmetry; apply map_length|].
  intros j Hj. rewrite map_nth. apply nth_error_nth, (deliver_in (fun i => nth i vs d)); [apply H, Hj|rewrite repeat_length; exact Hj].
Qed.

Lemma batch_end_bounds mc n s : s <= n ->
  s <= batch_end mc n s <= n /\ (s < n -> s < batch_end mc n s) /\ (mc <> 0 -> batch_end mc n s - s <= mc).
Proof. unfold batch_end. destruct (Nat.eqb_spec mc 0); lia. Qed.

Lemma batches_from_spec fuel mc n : forall s, n - s <= fuel ->
  flat_map (fun b => seq (fst b) (snd b - fst b)) (batches_from fuel mc n s) = seq s (n - s) /\
  (mc <> 0 -> forall b, In b (batches_from fuel mc n s) -> snd b - fst b <= mc).
Proof.
  induction fuel as [|f IH]; intros s Hf; cbn [batches_from].
  - replace (n - s) with 0 by lia. split; [reflexivity|intros _ b []].
  - destruct (Nat.ltb_spec s n) as [L|L].
    + destruct (batch_end_bounds mc n s (Nat.lt_le_incl _ _ L)) as (B1 & B2 & B3).
      destruct (IH (batch_end mc n s)) as (I1 & I2); [lia|].
      cbv zeta. cbn [flat_map fst snd In]. split.
      * rewrite I1. replace (n - s) with ((batch_end mc n s - s) + (n - batch_end mc n s)) by lia.
        rewrite seq_app. do 2 f_equal. lia.
      * intros M b [<-|Hb]; [apply B3; exact M|apply I2; assumption].
    + replace (n - s) with 0 by lia. split; [reflexivity|intros _ b []].
Qed.

Lemma collect_fst {A} mc (r : list (option A)) s i v : fst (collect mc r s i v) = set_nth i (Some v) r.
Proof. unfold collect. destruct (all_some _); [reflexivity|]. destruct (_ && _); reflexivity. Qed.

(* all that the announcement of a next block says *)
Lemma collect_next_inv {A} mc (r : list (option A)) s i v r' b e :
  collect mc r s i v = (r', JNextBatch b e) ->
  r' = set_nth i (Some v) r /\ b = batch_end mc (length r) s /\ e = batch_end mc (length r) b /\
  mc <> 0 /\ all_some (slice s b r') = true /\ all_some r' = false.
Proof.
  unfold collect. rewrite set_nth_length. destruct (all_some (set_nth i (Some v) r)) eqn:E1; [discriminate|].
  destruct (negb (Nat.eqb mc 0) && _) eqn:E2; [|discriminate]. intros H. inversion H; subst.
  apply andb_prop in E2 as (M & S). destruct (Nat.eqb_spec mc 0); [discriminate|]. repeat split; assumption.
Qed.

Lemma in_remove_nat i l j : In j (remove_nat i l) -> In j l.
Proof.
  induction l as [|x l IH]; cbn; [tauto|]. destruct (Nat.eqb x i); intros H; [right; exact H|].
  destruct H; [left; assumption|right; auto].
Qed.

Lemma remove_nat_nodup i l : NoDup l -> NoDup (remove_nat i l).
Proof.
  induction l as [|x l IH]; cbn; intros H; [constructor|]. inversion H; subst. destruct (Nat.eqb x i); [assumption|].
  constructor; [intros F; apply in_remove_nat in F; contradiction|auto].
Qed.

(* One step: iteration i, which was in flight, fills its slot; then either the block goes on without it,
   or (MaxConcurrency given, block complete, slots left) the next block is launched whole. *)
Lemma jstep_inv {A} mc (s s' : jst A) i v a : jstep mc s i v = Some (s', a) ->
  In i (inflight s) /\ res s' = set_nth i (Some v) (res s) /\
  ((jstart s' = jstart s /\ inflight s' = remove_nat i (inflight s) /\ launched s' = launched s) \/
   (mc <> 0 /\ jstart s' = batch_end mc (length (res s)) (jstart s) /\
    inflight s' = seq (jstart s') (batch_end mc (length (res s)) (jstart s') - jstart s') /\
    launched s' = launched s ++ inflight s')).
Proof.
  unfold jstep. destruct (existsb _ _) eqn:Ei; [|discriminate].
  apply existsb_exists in Ei as (k & Hk & Ek). apply Nat.eqb_eq in Ek. subst k.
  pose proof (collect_fst mc (res s) (jstart s) i v) as F.
  destruct (collect mc (res s) (jstart s) i v) as [r' a'] eqn:C. cbn [fst] in F. subst r'.
  destruct a' as [|b e|out]; intros [= <- <-]; cbn; (split; [exact Hk|split; [reflexivity|]]).
  - left. repeat split.
  - right. apply collect_next_inv in C as (_ & -> & -> & M & _). repeat split. exact M.
  - left. repeat split.
Qed.

Fixpoint jrun {A} (mc : nat) (s : jst A) (l : list (nat * A)) : option (jst A) :=
  match l with
  | [] => Some s
  | (i, v) :: r => match jstep mc s i v with Some (s', _) => jrun mc s' r | None => None end
  end.

Lemma jrun_ind {A} mc (P : jst A -> Prop) :
  (forall s s' i v a, P s -> jstep mc s i v = Some (s', a) -> P s') ->
  forall l s s', P s -> jrun mc s l = Some s' -> P s'.
Proof.
  intros Step. induction l as [|[i v] l IH]; intros s s' I H; cbn in H; [inversion H; subst; exact I|].
  destruct (jstep mc s i v) as [[s1 a]|] eqn:E; [|discriminate]. apply (IH s1); [eapply Step; eassumption|exact H].
Qed.
