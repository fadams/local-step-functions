(* The child-launch protocol of Model/Children.v, for every run (any number of parents and children, any
   interleaving of launches, child progress, child ends, timeouts and cancellations): what a step can do to
   the world (cstep_spec), and the invariants of the reachable worlds that Properties/C15.v reads off. *)
From Coq Require Import List Arith Lia.
Import ListNotations.
From LSF Require Import Children.

Lemma lookup_remove {A} x y (l : list (nat * A)) : lookup y (remove_key x l) = if Nat.eqb x y then None else lookup y l.
Proof.
  induction l as [|[z a] r IH]; cbn; [now destruct (Nat.eqb x y)|].
  destruct (Nat.eqb_spec z x) as [->|N]; cbn; rewrite IH; destruct (Nat.eqb_spec x y) as [->|]; try reflexivity.
  now rewrite (proj2 (Nat.eqb_neq z y) N).
Qed.
Lemma lookup_remove_same {A} x (l : list (nat * A)) : lookup x (remove_key x l) = None.
Proof. now rewrite lookup_remove, Nat.eqb_refl. Qed.
Lemma lookup_set {A} x y (a : A) l : lookup y (set_key x a l) = if Nat.eqb x y then Some a else lookup y l.
Proof. unfold set_key; cbn. rewrite lookup_remove. now destruct (Nat.eqb x y). Qed.
Lemma lookup_set_same {A} x (a : A) l : lookup x (set_key x a l) = Some a.
Proof. now rewrite lookup_set, Nat.eqb_refl. Qed.
(* the second hypothesis is on what is stored under x, not x <> y: that is what the callers know of x
   (an ended child is never written over; a child blocked on another timer is not the owner of this one) *)
Lemma lookup_set_keeps {A} x y (a b : A) l : lookup y l = Some b -> lookup x l <> Some b -> lookup y (set_key x a l) = Some b.
Proof. intros L N. rewrite lookup_set. destruct (Nat.eqb_spec x y) as [->|]; [contradiction|exact L]. Qed.
Lemma lookup_remove_keeps {A} x y (b : A) l : lookup y l = Some b -> lookup x l <> Some b -> lookup y (remove_key x l) = Some b.
Proof. intros L N. rewrite lookup_remove. destruct (Nat.eqb_spec x y) as [->|]; [contradiction|exact L]. Qed.
Lemma lookup_remove_some {A} x y (a : A) l : lookup y (remove_key x l) = Some a -> x <> y /\ lookup y l = Some a.
Proof. rewrite lookup_remove. destruct (Nat.eqb_spec x y); [discriminate|auto]. Qed.
Lemma lookup_in {A} x (a : A) l : lookup x l = Some a -> In (x, a) l.
Proof.
  induction l as [|[y b] r IH]; cbn; [discriminate|]. destruct (Nat.eqb_spec y x) as [->|]; intros H.
  - inversion H; now left.
  - right; auto.
Qed.
Lemma in_remove_key {A} x y (a : A) l : In (y, a) (remove_key x l) -> In (y, a) l /\ y <> x.
Proof.
  induction l as [|[z b] r IH]; cbn; [tauto|]. destruct (Nat.eqb_spec z x) as [->|N]; cbn; [tauto|].
  intros [E|H]; [inversion E; subst; auto|tauto].
Qed.
Lemma in_remove_nat x m l : In x (remove_nat m l) <-> In x l /\ x <> m.
Proof. induction l as [|y r IH]; cbn; [tauto|]. destruct (Nat.eqb_spec y m); cbn; rewrite IH; intuition congruence. Qed.

(* no entry is shadowed by an earlier one with its key *)
Definition keyed {A} (l : list (nat * A)) : Prop := forall x a, In (x, a) l -> lookup x l = Some a.
Lemma keyed_remove {A} x (l : list (nat * A)) : keyed l -> keyed (remove_key x l).
Proof.
  intros K y a H. apply in_remove_key in H as [H N]. rewrite lookup_remove.
  destruct (Nat.eqb_spec x y); [congruence|auto].
Qed.
Lemma keyed_set {A} x (a : A) l : keyed l -> keyed (set_key x a l).
Proof.
  intros K y b [E|H]; [inversion E; apply lookup_set_same|].
  rewrite lookup_set. destruct (in_remove_key _ _ _ _ H) as [H' N].
  destruct (Nat.eqb_spec x y); [congruence|auto].
Qed.

Lemma find_by_timer_in n l c q : find_by_timer n l = Some (c, q) -> In (c, q) l /\ q_timer q = n.
Proof.
  induction l as [|[d r] l IH]; cbn; [discriminate|]. destruct (Nat.eqb_spec (q_timer r) n) as [E|]; intros H.
  - inversion H; subst. split; [now left|reflexivity].
  - destruct (IH H); split; [now right|assumption].
Qed.
Lemma find_by_task_in t l c q : find_by_task t l = Some (c, q) -> In (c, q) l /\ q_task q = t.
Proof.
  induction l as [|[d r] l IH]; cbn; [discriminate|]. destruct (Nat.eqb_spec (q_task r) t) as [E|]; intros H.
  - inversion H; subst. split; [now left|reflexivity].
  - destruct (IH H); split; [now right|assumption].
Qed.

Definition live (ph : cphase) : Prop := forall ok, ph <> CEnded ok.
Definition alive (k : list (xid * cphase)) (c : xid) : Prop := exists ph, lookup c k = Some ph /\ live ph.
Lemma alive_not_ended k c : alive k c -> forall ok, lookup c k <> Some (CEnded ok).
Proof. intros (ph & L & Lv) ok E. apply (Lv ok). congruence. Qed.
Lemma alive_set k c ph d : alive k d -> (c = d -> live ph) -> alive (set_key c ph k) d.
Proof. intros (ph0 & L & Lv) N. unfold alive. rewrite lookup_set. destruct (Nat.eqb_spec c d); eauto. Qed.

(* child c, which has not ended, leaves its phase: the timers left armed, a1, were armed before (a), and c was blocked on none of them *)
Definition leaves (k : list (xid * cphase)) (c : xid) (a a1 : list tmr) : Prop :=
  alive k c /\ forall x, In x a1 -> In x a /\ lookup c k <> Some (CBlocked x).
Lemma leave_spec k c ph cl a a1 pre : lookup c k = Some ph -> leave ph cl a = Some (a1, pre) -> leaves k c a a1.
Proof.
  intros K H. split.
  - exists ph. split; [exact K|]. intros ok ->. destruct cl; discriminate H.
  - rewrite K. intros x Hx. destruct ph as [|m|o], cl; cbn in H; inversion H; subst.
    1: (* queued: no timer goes *) split; [exact Hx|discriminate].
    all: (* blocked on m: m goes *) apply in_remove_nat in Hx as [Hx N]; split; [exact Hx|congruence].
Qed.

Lemma cancel_child_self w c clog k a e : cancel_child w c clog = (k, a, e) ->
  lookup c k = lookup c (kids w) \/ lookup c k = Some (CEnded false).
Proof.
  unfold cancel_child; intros H. destruct (lookup c (kids w)) as [[| m |]|] eqn:L; inversion H; subst; auto.
  right; apply lookup_set_same.
Qed.

(* the request pending under child c is taken off and its Task completed with v *)
Definition finish (c : xid) (q : preq) (v : verdict) (w : cworld) : cworld :=
  {| pend := remove_key c (pend w); kids := kids w; done := done w ++ [(q_task q, v)];
     started := started w; armed := remove_nat (q_timer q) (armed w) |}.
(* child c enters phase ph, leaving the timers a armed *)
Definition enter (c : xid) (ph : cphase) (a : list tmr) (w : cworld) : cworld :=
  {| pend := pend w; kids := set_key c ph (kids w); done := done w; started := started w; armed := a |}.

Inductive gives_up : cinput -> verdict -> Prop :=
| gu_timeout n clog own : gives_up (ITimeout n clog own) VTimeout
| gu_cancel t clog : gives_up (ICancel t clog) VTerminated.

(* The shapes of a successful step, without its effects.  A Task that gives up (sp_giveup) finishes its request;
   what cancel_child then does to the child is a step of its own: nothing if the child is not blocked, else
   exactly the child's end FAILED on a cleared timer, with no request pending any more. *)
Inductive cstep_spec : cworld -> cinput -> cworld -> Prop :=
| sp_launch w t p plog f c (r : bool) n (K : if r then lookup c (kids w) <> None else lookup c (kids w) = None) :
    cstep_spec w (ILaunch t p plog f c r n)
      {| pend := match f with
                 | FSync => set_key c {| q_task := t; q_parent := p; q_plog := plog; q_timer := n |} (pend w)
                 | FAsync => pend w
                 end;
         kids := if r then kids w else set_key c CQueued (kids w);
         done := match f with FSync => done w | FAsync => done w ++ [(t, VLaunched c)] end;
         started := if r then started w else started w ++ [(c, t)];
         armed := match f with FSync => armed w ++ [n] | FAsync => armed w end |}
| sp_move w c cl b a1 (Lv : leaves (kids w) c (armed w) a1) :
    cstep_spec w (IChildMove c cl b)
      (enter c (match b with Some n => CBlocked n | None => CQueued end) (a1 ++ match b with Some n => [n] | None => [] end) w)
| sp_end w c clog cl ok a0 (Lv : leaves (kids w) c (armed w) a0) (L : lookup c (pend w) = None) :
    cstep_spec w (IChildEnd c clog cl ok) (enter c (CEnded ok) a0 w)
| sp_handover w c clog cl ok a0 q (Lv : leaves (kids w) c (armed w) a0) (L : lookup c (pend w) = Some q) :
    cstep_spec w (IChildEnd c clog cl ok) (finish c q (VChild c ok) (enter c (CEnded ok) a0 w))
| sp_giveup w i c q v j w'
    (Hin : In (c, q) (pend w)) (G : gives_up i v) (Hj : j = IOther \/ exists clog, j = IChildEnd c clog true false)
    (Sj : cstep_spec (finish c q v w) j w') : cstep_spec w i w'
| sp_other w : cstep_spec w IOther w.

Lemma cstep_spec_giveup w i v c q clog k a e :
  In (c, q) (pend w) -> gives_up i v -> cancel_child (finish c q v w) c clog = (k, a, e) ->
  cstep_spec w i {| pend := remove_key c (pend w); kids := k; done := done w ++ [(q_task q, v)]; started := started w; armed := a |}.
Proof.
  intros Hin G C. unfold cancel_child in C; cbn [kids armed finish] in C.
  destruct (lookup c (kids w)) as [[|m|o]|] eqn:K; inversion C; subst.
  2: { eapply sp_giveup; [exact Hin|exact G|right; exists clog; reflexivity|].
       apply (sp_end (finish c q v w) c clog true false); [exact (leave_spec _ c _ true _ _ _ K eq_refl)|].
       apply lookup_remove_same. }
  all: eapply sp_giveup; [exact Hin|exact G|left; reflexivity|apply sp_other].
Qed.

(* the skeleton that the child's move and the child's end share in cstep: a child that is known and has not ended leaves its phase *)
Lemma child_step_inv {R} w c cl (F : list tmr -> list xeffect -> option R) r :
  match lookup c (kids w) with
  | None | Some (CEnded _) => None
  | Some ph => match leave ph cl (armed w) with None => None | Some (a1, pre) => F a1 pre end
  end = Some r ->
  exists a1 pre, leaves (kids w) c (armed w) a1 /\ F a1 pre = Some r.
Proof.
  destruct (lookup c (kids w)) as [[|m|o]|] eqn:K; try discriminate;
    (destruct (leave _ cl (armed w)) as [[a1 pre]|] eqn:Lv; [|discriminate]); eauto using leave_spec.
Qed.

Lemma cstep_inv w i w' e : cstep w i = Some (w', e) -> cstep_spec w i w'.
Proof.
  destruct i as [t p plog f c r n | c cl b | c clog cl ok | n clog own | t clog | ]; cbn [cstep]; intros H.
  - destruct r, (lookup c (kids w)) eqn:K; cbn in H; try discriminate;
      (destruct f; [|destruct (mem n (armed w)); [discriminate|]]); inversion H; subst; apply sp_launch; congruence.
  - apply child_step_inv in H as (a1 & pre & Lv & H). destruct (match b with Some n => mem n a1 | None => false end); [discriminate|].
    inversion H; subst. apply sp_move, Lv.
  - apply child_step_inv in H as (a0 & pre & Lv & H).
    destruct (lookup c (pend w)) as [q|] eqn:L; inversion H; subst; [apply sp_handover|apply sp_end]; assumption.
  - destruct (find_by_timer n (pend w)) as [[c q]|] eqn:F; [|discriminate]. apply find_by_timer_in in F as [Hin <-].
    destruct (cancel_child _ c clog) as [[k a] ef] eqn:C. inversion H; subst.
    eapply cstep_spec_giveup; [exact Hin|constructor|exact C].
  - destruct (find_by_task t (pend w)) as [[c q]|] eqn:F; [|discriminate]. apply find_by_task_in in F as [Hin <-].
    destruct (cancel_child _ c clog) as [[k a] ef] eqn:C. inversion H; subst.
    eapply cstep_spec_giveup; [exact Hin|constructor|exact C].
  - inversion H; subst. apply sp_other.
Qed.

Lemma crun_app w a b : crun w (a ++ b) = match crun w a with Some w1 => crun w1 b | None => None end.
Proof. revert w; induction a as [|i a IH]; intros w; cbn; [reflexivity|]. destruct (cstep w i) as [[w1 e]|]; [apply IH|reflexivity]. Qed.

Lemma crun_ind (P : list cinput -> cworld -> Prop) w0 :
  P [] w0 -> (forall l w i w', crun w0 l = Some w -> P l w -> cstep_spec w i w' -> P (l ++ [i]) w') ->
  forall l w, crun w0 l = Some w -> P l w.
Proof.
  intros P0 PS. induction l as [|i l IH] using rev_ind; intros w R; [inversion R; subst; exact P0|].
  rewrite crun_app in R. destruct (crun w0 l) as [w1|] eqn:R1; [|discriminate]. cbn in R.
  destruct (cstep w1 i) as [[w2 e]|] eqn:E; inversion R; subst.
  eapply PS; [exact R1|apply IH; reflexivity|eapply cstep_inv; exact E].
Qed.

Lemma kids_step w i w' : cstep_spec w i w' ->
  kids w' = kids w \/ exists c ph, kids w' = set_key c ph (kids w) /\ forall ok, lookup c (kids w) <> Some (CEnded ok).
Proof.
  induction 1; cbn.
  2-4: (* sp_move, sp_end, sp_handover *) right; exists c; eexists; split; [reflexivity|apply alive_not_ended, Lv].
  - (* sp_launch *) destruct r; [now left|right]. exists c, CQueued. split; [reflexivity|congruence].
  - (* sp_giveup *) assumption.
  - (* sp_other *) now left.
Qed.
Lemma ended_stays w i w' d ok : cstep_spec w i w' -> lookup d (kids w) = Some (CEnded ok) -> lookup d (kids w') = Some (CEnded ok).
Proof. intros S L. destruct (kids_step _ _ _ S) as [->|(c & ph & -> & N)]; [exact L|]. apply lookup_set_keeps; [exact L|apply N]. Qed.
Lemma known_stays w i w' d : cstep_spec w i w' -> lookup d (kids w) <> None -> lookup d (kids w') <> None.
Proof. intros S K. destruct (kids_step _ _ _ S) as [->|(c & ph & -> & _)]; [exact K|]. rewrite lookup_set. now destruct (Nat.eqb c d). Qed.

Lemma started_step w i w' : cstep_spec w i w' ->
  started w' = started w \/ exists c t, started w' = started w ++ [(c, t)] /\ lookup c (kids w) = None /\ lookup c (kids w') <> None.
Proof.
  induction 1; cbn; auto.
  (* sp_launch is left *)
  destruct r; [now left|right]. exists c, t. split; [reflexivity|split; [exact K|]]. rewrite lookup_set_same. discriminate.
Qed.
Lemma started_mono w i w' x : cstep_spec w i w' -> In x (started w) -> In x (started w').
Proof. intros S H. destruct (started_step _ _ _ S) as [->|(c & t & -> & _)]; [exact H|apply in_or_app; now left]. Qed.

Definition StartedOk (w : cworld) : Prop :=
  NoDup (map fst (started w)) /\ forall c, In c (map fst (started w)) -> lookup c (kids w) <> None.
Lemma started_ok_step w i w' : cstep_spec w i w' -> StartedOk w -> StartedOk w'.
Proof.
  intros S [Nd Kn]. unfold StartedOk. destruct (started_step _ _ _ S) as [->|(c & t & -> & Fr & Kc)].
  - split; [exact Nd|]. intros d Hd. eapply known_stays; eauto.
  - rewrite map_app; cbn [map fst]. split.
    + apply (NoDup_Add (Add_app c (map fst (started w)) [])). rewrite app_nil_r. split; [exact Nd|]. intros Hc. exact (Kn c Hc Fr).
    + intros d Hd. apply in_app_or in Hd as [Hd|[<-|[]]]; [eapply known_stays; eauto|exact Kc].
Qed.

Lemma done_step w i w' u d o : cstep_spec w i w' -> In (u, VChild d o) (done w') ->
  In (u, VChild d o) (done w) \/ lookup d (kids w') = Some (CEnded o) /\ exists q, lookup d (pend w) = Some q /\ q_task q = u.
Proof.
  induction 1; cbn; auto; intros Hd.
  - (* sp_launch *) destruct f; [|now left]. apply in_app_or in Hd as [Hd|[E|[]]]; [now left|discriminate].
  - (* sp_handover *) apply in_app_or in Hd as [Hd|[E|[]]]; [now left|]. inversion E; subst. right. split; [apply lookup_set_same|eauto].
  - (* sp_giveup *) destruct (IHcstep_spec Hd) as [O|(Kd & q0 & L & T)].
    + apply in_app_or in O as [O|[E|[]]]; [now left|]. destruct G; discriminate E.
    + right. split; [exact Kd|]. exists q0. split; [exact (proj2 (lookup_remove_some _ _ _ _ L))|exact T].
Qed.

Definition DoneOk (w : cworld) : Prop := forall t c ok, In (t, VChild c ok) (done w) -> lookup c (kids w) = Some (CEnded ok).
Lemma done_ok_step w i w' : cstep_spec w i w' -> DoneOk w -> DoneOk w'.
Proof. intros S I t c ok H. destruct (done_step _ _ _ _ _ _ S H) as [O|[K _]]; [eapply ended_stays; eauto|exact K]. Qed.

Definition KeysOk (w : cworld) : Prop := keyed (pend w).
Lemma keys_ok_step w i w' : cstep_spec w i w' -> KeysOk w -> KeysOk w'.
Proof.
  unfold KeysOk. induction 1; cbn; auto using keyed_remove.
  - destruct f; auto using keyed_set.
  - intros Ky. apply IHcstep_spec, keyed_remove, Ky.
Qed.

Definition is_launch_of (t : task) (i : cinput) : bool := match i with ILaunch t' _ _ _ _ _ _ => Nat.eqb t' t | _ => false end.
Definition launches_of (t : task) (l : list cinput) : nat := length (filter (is_launch_of t) l).
Fixpoint completions_of (t : task) (d : list (task * verdict)) : nat :=
  match d with [] => 0 | (u, _) :: r => (if Nat.eqb u t then 1 else 0) + completions_of t r end.
Fixpoint pending_of (t : task) (p : list (xid * preq)) : nat :=
  match p with [] => 0 | (_, q) :: r => (if Nat.eqb (q_task q) t then 1 else 0) + pending_of t r end.
(* what bounds the completions of t by its launches: a launch adds one (a completion at once, or a pending request);
   hand-over, timeout and cancellation turn a pending request into a completion; nothing else changes it *)
Definition load (t : task) (w : cworld) : nat := completions_of t (done w) + pending_of t (pend w).

Lemma completions_snoc t d x : completions_of t (d ++ [x]) = completions_of t d + (if Nat.eqb (fst x) t then 1 else 0).
Proof. induction d as [|[u v] r IH]; cbn [app completions_of]; [destruct x; cbn; lia|]. rewrite IH. lia. Qed.
Lemma launches_snoc t l i : launches_of t (l ++ [i]) = launches_of t l + (if is_launch_of t i then 1 else 0).
Proof. unfold launches_of. rewrite filter_app, app_length. cbn [filter]. now destruct (is_launch_of t i). Qed.
Lemma pending_remove_le t c p : pending_of t (remove_key c p) <= pending_of t p.
Proof.
  induction p as [|[d q] r IH]; cbn [remove_key pending_of]; [lia|].
  destruct (Nat.eqb d c); cbn [pending_of]; lia.
Qed.
Lemma pending_remove_in t c q p : In (c, q) p -> pending_of t (remove_key c p) + (if Nat.eqb (q_task q) t then 1 else 0) <= pending_of t p.
Proof.
  induction p as [|[d r] l IH]; cbn [remove_key pending_of In]; [intros []|]. intros [E|H].
  - inversion E; subst. rewrite Nat.eqb_refl. pose proof (pending_remove_le t c l). lia.
  - specialize (IH H). destruct (Nat.eqb d c); cbn [pending_of]; lia.
Qed.
Lemma load_finish t c q v w : In (c, q) (pend w) -> load t (finish c q v w) <= load t w.
Proof. intros H. unfold load; cbn. rewrite completions_snoc; cbn [fst]. pose proof (pending_remove_in t c q _ H). lia. Qed.

Lemma load_step t w i w' : cstep_spec w i w' -> load t w' <= load t w + (if is_launch_of t i then 1 else 0).
Proof.
  induction 1; cbn [is_launch_of].
  2, 3, 6: (* sp_move, sp_end, sp_other *) unfold load; cbn; lia.
  - (* sp_launch *) unfold load; cbn [done pend]. destruct f.
    + rewrite completions_snoc; cbn [fst]. lia.
    + pose proof (pending_remove_le t c (pend w)). cbn [set_key pending_of q_task]. lia.
  - (* sp_handover *) pose proof (load_finish t c q (VChild c ok) (enter c (CEnded ok) a0 w) (lookup_in _ _ _ L)). unfold load in *; cbn in *; lia.
  - (* sp_giveup *) pose proof (load_finish t c q v w Hin). assert (E : is_launch_of t j = false) by (destruct Hj as [->|[? ->]]; reflexivity).
    rewrite E in IHcstep_spec. destruct G; cbn [is_launch_of]; lia.
Qed.

Definition no_redelivery (l : list cinput) : Prop := forall t p plog f c n, ~ In (ILaunch t p plog f c true n) l.
Definition first_delivery (i : cinput) : Prop := match i with ILaunch _ _ _ _ _ true _ => False | _ => True end.

(* kept by first deliveries only: a redelivered launch registers its request whatever has become of the child
   (C15_child_end_before_redelivered_launch_refuted) *)
Definition PendOk (w : cworld) : Prop :=
  forall c q, lookup c (pend w) = Some q -> alive (kids w) c /\ In (c, q_task q) (started w).
Lemma pend_ok_none w c : PendOk w -> ~ alive (kids w) c -> lookup c (pend w) = None.
Proof. intros PO N. destruct (lookup c (pend w)) as [q|] eqn:L; [|reflexivity]. destruct (N (proj1 (PO c q L))). Qed.
Lemma pend_ok_finish c q v w : PendOk w -> PendOk (finish c q v w).
Proof. intros PO d u Ld. apply lookup_remove_some in Ld as [_ Ld]. exact (PO d u Ld). Qed.
Lemma pend_ok_step w i w' : cstep_spec w i w' -> first_delivery i -> PendOk w -> PendOk w'.
Proof.
  induction 1; cbn [first_delivery]; intros FD PO.
  - (* sp_launch *) destruct r; [contradiction|]. intros d u Ld. cbn in *.
    assert (Old : forall q, lookup d (pend w) = Some q -> alive (set_key c CQueued (kids w)) d /\ In (d, q_task q) (started w ++ [(c, t)])).
    { intros q Lq. destruct (PO d q Lq) as [A St]. split; [apply alive_set; [exact A|discriminate]|apply in_or_app; now left]. }
    destruct f; [exact (Old u Ld)|]. rewrite lookup_set in Ld. destruct (Nat.eqb_spec c d) as [->|]; [|exact (Old u Ld)].
    inversion Ld; subst; cbn. split; [exists CQueued; split; [apply lookup_set_same|discriminate]|apply in_or_app; right; now left].
  - (* sp_move *) intros d u Ld. destruct (PO d u Ld) as [A St]. split; [|exact St]. apply alive_set; [exact A|]. intros _; destruct b; discriminate.
  - (* sp_end *) intros d u Ld. destruct (PO d u Ld) as [A St]. split; [|exact St]. apply alive_set; [exact A|]. intros ->. cbn in Ld; congruence.
  - (* sp_handover *) intros d u Ld. apply lookup_remove_some in Ld as [N Ld].
    destruct (PO d u Ld) as [A St]. split; [|exact St]. apply alive_set; [exact A|contradiction].
  - (* sp_giveup: the child's own step j is a first delivery: first_delivery of IOther and of IChildEnd is True *)
    apply IHcstep_spec; [destruct Hj as [->|[? ->]]; exact I|apply pend_ok_finish, PO].
  - exact PO.
Qed.

Definition DoneBy (w : cworld) : Prop := forall t c ok, In (t, VChild c ok) (done w) -> In (c, t) (started w).
Lemma done_by_step w i w' : cstep_spec w i w' -> PendOk w -> DoneBy w -> DoneBy w'.
Proof.
  intros S PO DB t c ok H. eapply started_mono; [exact S|].
  destruct (done_step _ _ _ _ _ _ S H) as [O|(_ & q & L & <-)]; [exact (DB _ _ _ O)|apply (PO c q L)].
Qed.

(* of the world after the run l; the last two fields are for runs without redelivered launches (see PendOk) *)
Record CInv (l : list cinput) (w : cworld) : Prop := {
  ci_done : DoneOk w;
  ci_started : StartedOk w;
  ci_keys : KeysOk w;
  ci_load : forall t, load t w <= launches_of t l;
  ci_pend : Forall first_delivery l -> PendOk w;
  ci_done_by : Forall first_delivery l -> DoneBy w }.

Theorem cinv_run l w : crun cinit l = Some w -> CInv l w.
Proof.
  apply crun_ind; clear l w.
  - split.
    + intros t c ok [].
    + split; [constructor|intros c []].
    + intros c q [].
    + intros t. apply le_n.
    + discriminate.
    + intros _ t c ok [].
  - intros l w i w' _ I S.
    assert (FD : Forall first_delivery (l ++ [i]) -> first_delivery i /\ PendOk w /\ DoneBy w).
    { intros F. split; [exact (Forall_elt _ _ _ F)|]. apply Forall_app in F as [F _].
      exact (conj (ci_pend l w I F) (ci_done_by l w I F)). }
    split.
    + exact (done_ok_step _ _ _ S (ci_done l w I)).
    + exact (started_ok_step _ _ _ S (ci_started l w I)).
    + exact (keys_ok_step _ _ _ S (ci_keys l w I)).
    + intros t. rewrite launches_snoc. pose proof (load_step t _ _ _ S). pose proof (ci_load l w I t). lia.
    + intros F. destruct (FD F) as (Fi & PO & _). exact (pend_ok_step _ _ _ S Fi PO).
    + intros F. destruct (FD F) as (_ & PO & DB). exact (done_by_step _ _ _ S PO DB).
Qed.
