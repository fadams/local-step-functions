(* The closed form of the timer that Wait and Task arm; offset texts written by two_digits are read back by
   int(); the parser on a text cut where it cuts it. *)
From LSF Require Import PyStr Json Paths Timestamp Deadline.
Open Scope string_scope.
Open Scope nat_scope.

Lemma clamp0_spec z : clamp0 z = Z.max 0 z.
Proof. unfold clamp0. destruct (Z.ltb_spec 0 z); lia. Qed.

Lemma delay_of_spec t1 t2 : delay_of t1 t2 = Z.min t1 t2.
Proof. unfold delay_of. destruct (Z.ltb_spec t1 t2); lia. Qed.

(* Wait and Task arm the same timer: it fires at the earlier of the execution deadline and the state's
   own target, or at once when that is past ... *)
Lemma fire_time now started xt target :
  (now + delay_of (t1_of now started xt) (t2_of now target) = Z.max now (Z.min (started + xt) target))%Z.
Proof. unfold t1_of, t2_of. rewrite delay_of_spec, !clamp0_spec. lia. Qed.

(* ... and `timeout == t1` blames the execution deadline exactly when it is past already or not later than the target *)
Lemma fire_is_deadline now started xt target :
  (delay_of (t1_of now started xt) (t2_of now target) =? t1_of now started xt)%Z = (started + xt <=? Z.max now target)%Z.
Proof.
  unfold t1_of, t2_of. rewrite delay_of_spec, !clamp0_spec.
  apply eq_true_iff_eq. rewrite Z.eqb_eq, Z.leb_le. lia.
Qed.

Lemma wait_fires_spec now started xt target :
  wait_fires now started xt target =
  (Z.max now (Z.min (started + xt) target), if (started + xt <=? Z.max now target)%Z then ExecutionTimeout else Completed).
Proof. unfold wait_fires. cbv zeta. rewrite fire_time, fire_is_deadline. reflexivity. Qed.

Lemma task_deadline_spec now started xt entered tsecs :
  task_deadline now started xt entered tsecs =
  (Z.max now (Z.min (started + xt) (entered + tsecs)),
   if (started + xt <=? Z.max now (entered + tsecs))%Z then ExecTimeout else TaskTimeout).
Proof. unfold task_deadline. cbv zeta. rewrite fire_time, fire_is_deadline. reflexivity. Qed.

Definition two_digits (n : nat) : string :=
  String (ascii_of_nat (48 + n / 10)) (String (ascii_of_nat (48 + n mod 10)) "").

Definition offset_text (neg : bool) (h m : nat) : string :=
  String (if neg then "-" else "+")%char (two_digits h ++ String ":" (two_digits m)).

Definition signed_minutes (neg : bool) (h m : nat) : Z :=
  let d := Z.of_nat (h * 60 + m) in if neg then (- d)%Z else d.

Lemma digit_code k : k < 10 -> nat_of_ascii (ascii_of_nat (48 + k)) = 48 + k.
Proof. intros H. apply nat_ascii_embedding. lia. Qed.

Lemma is_digit_code k : k < 10 -> is_digit (ascii_of_nat (48 + k)) = true.
Proof. intros H. unfold is_digit. rewrite digit_code by exact H. apply andb_true_intro. split; apply Nat.leb_le; lia. Qed.

(* two_digits writes n in decimal, so int() reads n back *)
Lemma py_int_two_digits n : n < 100 -> py_int (two_digits n) = Some (Z.of_nat n).
Proof.
  intros H.
  assert (n / 10 < 10) as Ha by (apply Nat.div_lt_upper_bound; lia).
  assert (n mod 10 < 10) as Hb by (apply Nat.mod_upper_bound; lia).
  unfold py_int, all_digits, two_digits. cbn [String.eqb forall_char negb]. rewrite !is_digit_code by assumption.
  unfold digits_val. cbn [andb digits_val_acc]. rewrite !digit_code by assumption.
  f_equal. pose proof (Nat.div_mod n 10). lia.
Qed.

Lemma offset_minutes_exact neg h m : h < 24 -> m < 60 ->
  offset_minutes (offset_text neg h m) = Some (signed_minutes neg h m).
Proof.
  intros Hh Hm. unfold offset_minutes, offset_text, signed_minutes.
  change (str_sub 1 2 _) with (two_digits h). change (str_sub 4 2 _) with (two_digits m).
  rewrite !py_int_two_digits by lia.
  assert (forall d, (-1440 < d < 1440)%Z -> ((-1440 <? d) && (d <? 1440))%Z = true) as R
    by (intros d Hd; apply andb_true_intro; split; apply Z.ltb_lt; lia).
  destruct neg; cbv iota; rewrite R by lia; f_equal; lia.
Qed.

Lemma last_char_app d a o : last_char (d ++ String a o) = last_char (String a o).
Proof.
  unfold last_char. rewrite length_append. cbn [String.length].
  replace (String.length d + S (String.length o) - 1) with (String.length d + String.length o) by lia.
  replace (S (String.length o) - 1) with (String.length o) by lia.
  induction d as [|x d IH]; cbn [append String.length Nat.add str_drop]; [reflexivity|exact IH].
Qed.

Lemma length_two_digits n : String.length (two_digits n) = 2.
Proof. reflexivity. Qed.

Lemma digit_not_Z k : k < 10 -> ascii_eqb (ascii_of_nat (48 + k)) "Z" = false.
Proof.
  intros H. apply ascii_eqb_neq. intros E. apply (f_equal nat_of_ascii) in E. rewrite digit_code in E by exact H.
  cbn in E. lia.
Qed.

(* what the parser does with a text without outer blanks, cut where it cuts it: before the Z, or before the six
   characters of an offset *)
Lemma parse_rfc3339_app d o c :
  rstrip (lstrip (d ++ o)) = d ++ o -> last_char (d ++ o) = Some c ->
  String.length o = (if ascii_eqb c "Z" then 1 else 6) ->
  parse_rfc3339 (d ++ o) =
  match parse_naive (if has_char "." d then d else d ++ ".0") with
  | TsOk naive =>
      match offset_minutes (if ascii_eqb c "Z" then "+00:00" else o) with
      | Some m => TsOk (naive - m * 60000000)
      | None => TsBad
      end
  | r => r
  end.
Proof.
  intros Hs Hc Hl. unfold parse_rfc3339. rewrite Hs, Hc, length_append, Hl.
  destruct (ascii_eqb c "Z"); rewrite Nat.add_sub, str_take_app, ?str_drop_app; reflexivity.
Qed.
