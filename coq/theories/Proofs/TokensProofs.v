(* Model/Tokens.v: a task is completed at most once per start, by the potential `held` (a start adds one holder of
   the token, a completion takes one away: `tstep_held`). *)
From Coq Require Import List Arith Bool String Lia.
Import ListNotations.
From LSF Require Import Tokens.

Lemma in_remove_tok t u l : In u (remove_tok t l) <-> In u l /\ u <> t.
Proof. induction l as [|x l IH]; cbn; [tauto|]. destruct (Nat.eqb_spec x t); cbn; rewrite IH; intuition congruence. Qed.

Lemma existsb_eqb_in t l : existsb (Nat.eqb t) l = true <-> In t l.
Proof.
  rewrite existsb_exists. split; [intros (x & H & E); apply Nat.eqb_eq in E; now subst|].
  intros H; exists t; split; [exact H|apply Nat.eqb_refl].
Qed.

(* 1 while a task waits with token t, else 0: what a callback presenting t can still complete *)
Definition held (t : token) (l : list token) : nat := if existsb (Nat.eqb t) l then 1 else 0.

Lemma held_cons t u l : held t (u :: l) = if Nat.eqb u t then 1 else held t l.
Proof. unfold held; cbn. rewrite Nat.eqb_sym. now destruct (Nat.eqb u t). Qed.
Lemma held_remove t u l : held t (remove_tok u l) = if Nat.eqb u t then 0 else held t l.
Proof.
  unfold held. replace (existsb (Nat.eqb t) (remove_tok u l)) with (negb (Nat.eqb u t) && existsb (Nat.eqb t) l);
    [now destruct (Nat.eqb u t)|].
  apply eq_true_iff_eq. rewrite andb_true_iff, negb_true_iff, Nat.eqb_neq, !existsb_eqb_in, in_remove_tok. intuition congruence.
Qed.

(* a lemma, not an unfolding at its use: unfolded by hand one side counts in a list of token * tres, the other of
   nat * tres, and lia takes the two counts for different terms *)
Lemma completions_snoc t w c x :
  completions_of t {| waiting := w; completed := c ++ [x] |}
  = completions_of t {| waiting := w; completed := c |} + if Nat.eqb (fst x) t then 1 else 0.
Proof. destruct x as [u r]. unfold completions_of; cbn [completed]. rewrite filter_app, app_length. cbn [filter fst]. now destruct (Nat.eqb u t). Qed.

Lemma tstep_held t s o :
  completions_of t (tstep s o) + held t (waiting (tstep s o))
  <= completions_of t s + held t (waiting s) + (match o with TStart u => if Nat.eqb u t then 1 else 0 | _ => 0 end).
Proof.
  destruct o as [u|u r|u|u]; cbn [tstep]; [| |lia|].
  - cbn [waiting]. rewrite held_cons, held_remove. unfold completions_of; cbn [completed]. destruct (Nat.eqb u t); lia.
  - destruct (existsb (Nat.eqb u) (waiting s)) eqn:E; [|lia]. cbn [waiting]. rewrite completions_snoc, held_remove.
    unfold completions_of; cbn [completed fst]. destruct (Nat.eqb_spec u t) as [->|]; [|lia].
    unfold held. rewrite E. lia.
  - unfold completions_of; cbn [waiting completed]. rewrite held_remove. destruct (Nat.eqb u t); lia.
Qed.

Lemma starts_cons t o l :
  starts_of t (o :: l) = (match o with TStart u => if Nat.eqb u t then 1 else 0 | _ => 0 end) + starts_of t l.
Proof. unfold starts_of; cbn [filter]. destruct o as [u| | |]; [destruct (Nat.eqb u t)|..]; reflexivity. Qed.

Theorem completed_at_most_once l t : forall s,
  completions_of t (trun s l) <= completions_of t s + held t (waiting s) + starts_of t l.
Proof.
  induction l as [|o l IH]; intros s; cbn [trun]; [lia|].
  specialize (IH (tstep s o)). pose proof (tstep_held t s o). rewrite starts_cons. lia.
Qed.

Example documented_names :
  map cap_first ["executionArn"; "input"; "name"; "output"; "startDate"; "stateMachineArn"; "status"; "stopDate"; "error"; "cause"]%string
  = ["ExecutionArn"; "Input"; "Name"; "Output"; "StartDate"; "StateMachineArn"; "Status"; "StopDate"; "Error"; "Cause"]%string.
Proof. reflexivity. Qed.
