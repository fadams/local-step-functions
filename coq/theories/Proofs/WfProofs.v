(* What structural well-formedness (Spec/Wf.v) gives about one machine: its start state and
   each of its states. *)
From Coq Require Import List Bool String.
Import ListNotations.
From LSF Require Import PyStr Json Wf.
Open Scope string_scope.

Lemma existsb_none {A} (f : A -> bool) l : (forall x, In x l -> f x = false) -> existsb f l = false.
Proof.
  intros H. apply not_true_is_false. intros X. apply existsb_exists in X as (x & Hx & X).
  rewrite (H x Hx) in X. discriminate.
Qed.

Lemma wf_start d m : wf d m = true -> exists s0, start_of m = Some s0 /\ has_state m s0 = true.
Proof.
  destruct d; [discriminate|]. cbn [wf]. destruct (start_of m) as [s0|]; [|discriminate].
  intros W. apply andb_prop in W as [W _]. exists s0. split; [reflexivity|exact W].
Qed.

Lemma wf_state d m name st : wf d m = true -> obj_get (states_of m) name = Some (JObj st) ->
  state_ok m st = true /\ forall b, In b (submachines st) -> wf (pred d) b = true.
Proof.
  destruct d; [discriminate|]. cbn [wf pred]. destruct (start_of m); [|discriminate]. intros W E. apply andb_prop in W as [_ W].
  rewrite forallb_forall in W. apply obj_get_in, W, andb_prop in E as [K Ksub].
  rewrite forallb_forall in Ksub. auto.
Qed.

Lemma state_ok_targets m st t : state_ok m st = true -> In t (targets st) -> has_state m t = true.
Proof.
  unfold state_ok. cbv zeta. rewrite !andb_true_iff, forallb_forall. intros ((((_ & _) & Ktg) & _) & _). apply Ktg.
Qed.

(* state_ok refutes every disjunct of [illegal] that speaks of the state alone; what is left is the
   recursion, into the nested machines and along the transitions *)
Lemma illegal_state_ok f m name st :
  obj_get (states_of m) name = Some (JObj st) -> state_ok m st = true ->
  illegal (S f) m name =
    existsb (fun b => match start_of b with Some s0 => illegal f b s0 | None => true end) (submachines st) ||
    negb (terminal_type (type_of st) || is_end st) && existsb (illegal f m) (targets st).
Proof.
  intros E K. cbn [illegal]. rewrite E. unfold state_ok in K. cbv zeta in K. rewrite !andb_true_iff in K.
  destruct K as ((((Kty & Ksc) & _) & Kgo) & Kbd). apply negb_true_iff in Kbd.
  rewrite Kty, Ksc, Kbd, andb_false_r. cbn [negb orb]. f_equal.
  destruct (terminal_type (type_of st) || is_end st); [reflexivity|]. cbn [orb negb andb] in *.
  destruct (targets st) as [|t ts] eqn:Et.
  - (* no target at all, so no Next either: Kgo asks for one of them *)
    unfold targets in Et. apply app_eq_nil in Et as [Et _]. rewrite Et, andb_false_r in Kgo. discriminate.
  - destruct (String.eqb (type_of st) "Choice"); cbn [negb andb]; [apply orb_false_r|].
    destruct (next_of st); [discriminate|apply orb_false_r].
Qed.

(* [illegal] does find something: a dangling Next *)
Example dangling_next_is_illegal :
  illegal 3 [("StartAt", JStr "A"); ("States", JObj [("A", JObj [("Type", JStr "Pass"); ("Next", JStr "Nowhere")])])] "A" = true.
Proof. reflexivity. Qed.
