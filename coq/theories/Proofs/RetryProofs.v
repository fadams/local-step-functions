(* Model/Retry.v against Spec/RetrySpec.v: what the scans of retriers and catchers return on the JSON of typed
   retriers / catchers (`scan_retriers_spec`, `scan_catchers_spec`), and a whole state visit as a refinement of the
   per-retrier policy (`policy_refines_spec`) - with the counter-example that shows why only one retrier may take part. *)
From LSF Require Import PyStr Json Retry_gen Paths Retry RetrySpec C07Oracle.
From Coq Require Import QArith.
Close Scope Q_scope.
Open Scope string_scope.

(* Gen/Retry_gen.v reads these from /repo at every build; the proofs below hold for these values, and this is
   the lemma that fails first when the source changes one *)
Lemma generated_constants :
  unrecoverable_errors = ["States.Runtime"; "States.ExecutionTimeout"; "Task.Terminated"; "States.ExecutionHistoryLimitExceeded"] /\
  retry_default_interval = (1 # 1)%Q /\ retry_default_max = 3%Z /\ retry_default_rate = (2 # 1)%Q /\
  retry_rate_floor = (1 # 1)%Q /\ retry_rate_floor_value = (1 # 1)%Q.
Proof. repeat split; reflexivity. Qed.

Lemma unrecoverable_is_spec e : unrecoverable e = spec_unrecoverable e.
Proof.
  unfold unrecoverable, spec_unrecoverable. destruct generated_constants as [-> _].
  cbn [existsb]. rewrite orb_false_r, !orb_assoc. reflexivity.
Qed.

(* the typed retriers and catchers of Spec/RetrySpec.v as the JSON that handle_error reads.  A catcher's ResultPath is not
   rendered: what is proved over catcher_json is about catchers with the default ResultPath *)
Definition q_json (q : Q) : json := JFlt (Qnum q) (Qden q).

Definition retrier_json (r : sretrier) : json :=
  JObj [("ErrorEquals", JArr (map JStr (sr_errors r))); ("IntervalSeconds", q_json (sr_interval r));
        ("MaxAttempts", JInt (sr_max r)); ("BackoffRate", q_json (sr_rate r))].

Definition catcher_json (c : scatcher) : json :=
  JObj [("ErrorEquals", JArr (map JStr (sc_errors c))); ("Next", JStr (sc_next c))].

Lemma num_of_q_json q : num_of (q_json q) = Some q.
Proof. destruct q; reflexivity. Qed.

Lemma existsb_is_jstr e l : existsb (is_jstr e) (map JStr l) = has e l.
Proof.
  unfold has. induction l as [|x l IH]; cbn [map existsb is_jstr]; [reflexivity|]. rewrite IH. reflexivity.
Qed.

Lemma error_matches_smatch e l : error_matches e (map JStr l) = smatch e l.
Proof.
  unfold error_matches, smatch. rewrite !existsb_is_jstr. f_equal.
  destruct l as [|x [|y l]]; cbn [map is_jstr]; try reflexivity. apply String.eqb_sym.
Qed.

Definition rate_of (r : sretrier) : Q := if Qle_bool 1 (sr_rate r) then sr_rate r else 1%Q.

(* the first retrier whose ErrorEquals matches decides: a retry after interval * rate^count
   seconds while count < MaxAttempts, otherwise no retry at all (0 means never) *)
Theorem scan_retriers_spec rs e count :
  scan_retriers (map retrier_json rs) e count =
  Some (match first_match (fun r => smatch e (sr_errors r)) rs 0 with
        | Some (_, r) =>
            if Z.ltb count (sr_max r)
            then Some (DRetry (Qmult (sr_interval r) (Qpower (rate_of r) count)) (count + 1))
            else None
        | None => None
        end).
Proof.
  generalize 0 as i. induction rs as [|r rs IH]; intros i; [reflexivity|].
  cbn [map scan_retriers first_match]. unfold retrier_json at 1.
  cbn [obj_get String.eqb Ascii.eqb Bool.eqb]. rewrite error_matches_smatch.
  destruct (smatch e (sr_errors r)).
  - unfold get_q, get_z. cbn [obj_get String.eqb Ascii.eqb Bool.eqb]. rewrite !num_of_q_json.
    destruct generated_constants as (_ & _ & _ & _ & -> & ->). unfold rate_of.
    destruct (Z.ltb count (sr_max r)); reflexivity.
  - apply IH.
Qed.

Theorem scan_catchers_spec cs e cause raw :
  scan_catchers (map catcher_json cs) e cause raw =
  match first_match (fun c => smatch e (sc_errors c)) cs 0 with
  | Some (_, c) => DCatch (Some (JStr (sc_next c))) (error_output e cause)
  | None => DFail e
  end.
Proof.
  generalize 0 as i. induction cs as [|c cs IH]; intros i; [reflexivity|].
  cbn [map scan_catchers first_match]. unfold catcher_json at 1.
  cbn [obj_get String.eqb Ascii.eqb Bool.eqb]. rewrite error_matches_smatch.
  destruct (smatch e (sc_errors c)).
  - unfold resultpath_of. cbn [obj_get String.eqb Ascii.eqb Bool.eqb apply_resultpath_m is_null error_output].
    destruct cause; reflexivity.
  - apply IH.
Qed.

Definition state_of (rs : list sretrier) (cs : list scatcher) : list (string * json) :=
  [("Retry", JArr (map retrier_json rs)); ("Catch", JArr (map catcher_json cs))].

(* the model's last decision against the policy's outcome; of a catch only the Next is compared (catcher_json
   renders no ResultPath, so the data is the default placement and not part of the relation) *)
Definition final_rel (m : option decision) (s : sfinal) : Prop :=
  match s, m with
  | SSucceeded, None => True
  | SFailed e, Some (DFail e') => e = e'
  | SCaught n e _, Some (DCatch (Some (JStr n')) _) => n = n'
  | _, _ => False
  end.

Fixpoint delays_eq (a b : list Q) : Prop :=
  match a, b with
  | [], [] => True
  | x :: a', y :: b' => Qeq x y /\ delays_eq a' b'
  | _, _ => False
  end.

(* only retrier i (if any) is ever the first match for the reported errors *)
Definition only_retrier (rs : list sretrier) (i : nat) (errors : list string) : Prop :=
  Forall (fun e => match first_match (fun r => smatch e (sr_errors r)) rs 0 with
                   | Some (j, _) => j = i
                   | None => True
                   end) errors.

Lemma nth_bump counts i : i < length counts -> nth i (bump counts i) 0%Z = (nth i counts 0 + 1)%Z.
Proof.
  revert i. induction counts as [|c counts IH]; intros [|i] Hi; cbn in *; try lia. apply IH. lia.
Qed.

Lemma length_bump counts i : length (bump counts i) = length counts.
Proof. revert i. induction counts as [|c counts IH]; intros [|i]; cbn; auto. Qed.

Lemma first_match_bound {A} (f : A -> bool) l k j x : first_match f l k = Some (j, x) -> k <= j < k + length l.
Proof.
  revert k. induction l as [|y l IH]; intros k; cbn [first_match length]; [discriminate|].
  destruct (f y).
  - intros H; inversion H; subst. lia.
  - intros H. apply IH in H. lia.
Qed.

(* as long as retrier i alone is ever the first match, the one RetryCount of the code is the attempt counter of retrier i *)
Theorem policy_refines_spec rs cs i : forall errors count counts cause raw,
  length counts = length rs -> nth i counts 0%Z = count -> only_retrier rs i errors ->
  let '(ds, fin) := run_policy (state_of rs cs) cause raw errors count in
  let '(ds', fin', _) := spec_run rs cs counts errors in
  delays_eq ds ds' /\ final_rel fin fin'.
Proof.
  induction errors as [|e errors IH]; intros count counts cause raw Hlen Hc Ho; [split; exact I|].
  inversion Ho as [|e' l He Hrest]; subst.
  cbn [run_policy spec_run]. unfold policy. rewrite unrecoverable_is_spec.
  destruct (spec_unrecoverable e); [split; [exact I|reflexivity]|].
  unfold state_of. cbn [obj_get String.eqb Ascii.eqb Bool.eqb as_list]. rewrite scan_retriers_spec.
  destruct (first_match (fun r => smatch e (sr_errors r)) rs 0) as [[j r]|] eqn:F; [subst j; destruct (Z.ltb _ (sr_max r))|].
  (* no retry granted (retrier i is exhausted, or no retrier matches): the first matching catcher decides on both sides *)
  2, 3: rewrite scan_catchers_spec; destruct (first_match _ cs 0) as [[k c]|]; (split; [exact I|reflexivity]).
  apply first_match_bound in F. rewrite <- Hlen in F.
  specialize (IH _ (bump counts i) cause raw (eq_trans (length_bump _ _) Hlen) (nth_bump _ _ (proj2 F)) Hrest).
  destruct (run_policy _ cause raw errors _) as [ds fin], (spec_run rs cs (bump counts i) errors) as [[ds' fin'] used].
  split; [split; [reflexivity|]|]; apply IH.
Qed.

Lemma nth_zeros {A} (l : list A) j : nth j (zeros l) 0%Z = 0%Z.
Proof. revert j. induction l as [|x l IH]; intros [|j]; cbn; auto. Qed.

(* with two retriers taking turns the shared counter departs from the policy (finding F20) *)
Definition f20_retriers : list sretrier :=
  [ {| sr_errors := ["A"]; sr_interval := 1; sr_max := 2; sr_rate := 2 |};
    {| sr_errors := ["B"]; sr_interval := 1; sr_max := 3; sr_rate := 2 |} ].
Definition f20_errors : list string := ["A"; "A"; "B"; "B"; "B"; "B"].

Theorem multi_retrier_refuted :
  let '(ds, _) := run_policy (state_of f20_retriers []) None (JObj []) f20_errors 0 in
  let '(ds', _, _) := spec_run f20_retriers [] [0; 0]%Z f20_errors in
  length ds = 3 /\ length ds' = 5.
Proof. vm_compute. split; reflexivity. Qed.
