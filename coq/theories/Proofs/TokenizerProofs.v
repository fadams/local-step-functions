(* The argument scanner of intrinsic calls (C13): arguments rendered from the grammar
   - plain atoms, apostrophe-delimited strings with backslash escapes (so commas,
   parentheses and escaped apostrophes inside them are inert), and calls nested to any
   depth - are split back into exactly the arguments that were rendered. *)
From LSF Require Import PyStr Json Template.
Open Scope string_scope.

Definition plain (c : ascii) : bool :=
  negb (ascii_eqb c quote_char || ascii_eqb c "," || ascii_eqb c "(" || ascii_eqb c ")").

(* units of a string body: an ordinary character, or a backslash and the character it escapes *)
Inductive sunit := SChar (c : ascii) | SEsc (c : ascii).
Definition sunit_ok (u : sunit) : bool :=
  match u with SChar c => negb (ascii_eqb c quote_char || ascii_eqb c bslash) | SEsc _ => true end.
Definition render_unit (u : sunit) : string :=
  match u with SChar c => String c "" | SEsc c => String bslash (String c "") end.
Fixpoint render_body (b : list sunit) : string :=
  match b with [] => "" | u :: r => render_unit u ++ render_body r end.

Inductive arg :=
| AAtom (s : string)                      (* number, null, true, false, a path *)
| AStr (body : list sunit)                (* 'text' *)
| ACall (name : string) (args : list arg). (* States.Name(arg, arg, ...) *)

Fixpoint join_commas (l : list string) : string :=
  match l with
  | [] => ""
  | [x] => x
  | x :: r => x ++ String "," (String " " (join_commas r))
  end.

Lemma join_commas_cons x y l : join_commas (x :: y :: l) = x ++ ", " ++ join_commas (y :: l).
Proof. reflexivity. Qed.

Fixpoint render_arg (a : arg) : string :=
  match a with
  | AAtom s => s
  | AStr b => String quote_char (render_body b ++ String quote_char "")
  | ACall n args => n ++ String "(" (join_commas (map render_arg args) ++ String ")" "")
  end.

Definition not_space_ends (s : string) : Prop := strip s = s.

Fixpoint arg_ok (a : arg) : Prop :=
  match a with
  | AAtom s => forall_char plain s = true /\ s <> "" /\ not_space_ends s
  | AStr b => forallb sunit_ok b = true
  | ACall n args => forall_char plain n = true /\ n <> "" /\ not_space_ends n /\
                    (fix all (l : list arg) : Prop := match l with [] => True | x :: r => arg_ok x /\ all r end) args
  end.

(* a text goes through the scanner, outside a string and at any depth from lo up, without
   splitting and without changing the state: lo = 0 for an argument, 1 for what stands between
   parentheses, where commas are inert *)
Definition passes (lo : Z) (t : string) : Prop :=
  forall rest cur depth acc, (lo <= depth)%Z ->
    scan_args (t ++ rest) cur depth false acc = scan_args rest (cur ++ t) depth false acc.

Lemma passes_nil lo : passes lo "".
Proof. intros rest cur depth acc _. cbn [append]. rewrite append_nil_r. reflexivity. Qed.

Lemma passes_app lo a b : passes lo a -> passes lo b -> passes lo (a ++ b).
Proof. intros Ha Hb rest cur depth acc Hd. rewrite append_assoc, Ha, Hb, append_assoc by assumption. reflexivity. Qed.

Lemma passes_above lo lo' t : (lo <= lo')%Z -> passes lo t -> passes lo' t.
Proof. intros Hlo H rest cur depth acc Hd. apply H. lia. Qed.

Lemma plain_passes lo s : forall_char plain s = true -> passes lo s.
Proof.
  induction s as [|c s IH]; cbn [forall_char]; intros H; [apply passes_nil|].
  apply andb_true_iff in H as [Hc Hs].
  change (String c s) with (String c "" ++ s). apply passes_app; [|exact (IH Hs)].
  intros rest cur depth acc _. unfold plain in Hc. rewrite negb_true_iff, !orb_false_iff in Hc.
  destruct Hc as [[[H1 H2] H3] H4]. cbn [append scan_args]. rewrite H1, H2, H3, H4. reflexivity.
Qed.

(* inside a string nothing is special except the closing apostrophe and the backslash *)
Lemma body_in_string b : forallb sunit_ok b = true ->
  forall rest cur depth acc,
    scan_args (render_body b ++ rest) cur depth true acc = scan_args rest (cur ++ render_body b) depth true acc.
Proof.
  induction b as [|u b IH]; cbn [forallb render_body]; intros H rest cur depth acc.
  - cbn [append]. rewrite append_nil_r. reflexivity.
  - apply andb_true_iff in H as [Hu Hb]. rewrite append_assoc.
    destruct u as [c|c]; cbn [render_unit append scan_args].
    + cbn [sunit_ok] in Hu. apply negb_true_iff in Hu. apply orb_false_iff in Hu as [H1 H2].
      rewrite H2, H1. cbn [negb]. rewrite (IH Hb), append_assoc. reflexivity.
    + cbn. rewrite (IH Hb), append_assoc. reflexivity.
Qed.

Lemma string_literal_passes lo b : forallb sunit_ok b = true ->
  passes lo (String quote_char (render_body b ++ String quote_char "")).
Proof.
  intros Hb rest cur depth acc _. cbn. rewrite append_assoc, (body_in_string b Hb). cbn.
  rewrite !append_assoc. reflexivity.
Qed.

Lemma comma_space_passes : passes 1 ", ".
Proof.
  intros rest cur depth acc Hd. cbn. destruct (Z.eqb_spec depth 0); [lia|]. rewrite append_assoc. reflexivity.
Qed.

Lemma group_passes lo t : passes (lo + 1) t -> passes lo (String "(" (t ++ ")")).
Proof.
  intros Ht rest cur depth acc Hd. cbn. rewrite append_assoc, Ht by lia. cbn.
  replace (depth + 1 - 1)%Z with depth by lia. rewrite !append_assoc. reflexivity.
Qed.

Lemma joined_passes l : Forall (passes 0) l -> passes 1 (join_commas l).
Proof.
  induction 1 as [|x l Hx Hl IH]; [apply passes_nil|]. apply (passes_above 0 1) in Hx; [|lia].
  destruct l as [|y l]; [exact Hx|]. rewrite join_commas_cons.
  apply passes_app; [exact Hx|]. apply passes_app; [apply comma_space_passes|exact IH].
Qed.

Theorem arg_passes : forall a, arg_ok a -> passes 0 (render_arg a).
Proof.
  fix IH 1. intros [s|b|n args]; cbn [arg_ok render_arg].
  - intros (Hp & _). apply plain_passes, Hp.
  - apply string_literal_passes.
  - intros (Hn & _ & _ & Hargs). apply passes_app; [apply plain_passes, Hn|].
    apply group_passes, joined_passes.
    induction args as [|x args IHa]; constructor; [apply IH|apply IHa]; apply Hargs.
Qed.

Lemma top_comma rest cur acc :
  scan_args (", " ++ rest) cur 0%Z false acc = scan_args rest " " 0%Z false (acc ++ [strip cur]).
Proof. reflexivity. Qed.

Definition top_ok (a : arg) : Prop :=
  arg_ok a /\ not_space_ends (render_arg a) /\ render_arg a <> "".

(* the scanner in the state it has at the start of any argument: some arguments collected, and in
   cur at most the blank that follows a comma *)
Theorem scan_rendered_args : forall args, args <> [] -> Forall top_ok args ->
  forall cur acc, (forall t, strip (cur ++ t) = strip t) ->
    scan_args (join_commas (map render_arg args)) cur 0%Z false acc = Some (acc ++ map render_arg args)%list.
Proof.
  induction args as [|a args IH]; [congruence|]. intros _ Hok cur acc Hcur.
  apply Forall_cons_iff in Hok as [(Ha & Hs & Hn) Hrest].
  assert (strip (cur ++ render_arg a) = render_arg a) as Hstrip by (rewrite Hcur; exact Hs).
  destruct args as [|b args]; cbn [map].
  - cbn [join_commas]. rewrite <- (append_nil_r (render_arg a)) at 1.
    rewrite (arg_passes a Ha) by lia. cbn [scan_args orb negb Z.eqb].
    rewrite Hstrip. destruct (String.eqb_spec (render_arg a) ""); [contradiction|].
    rewrite orb_true_r. reflexivity.
  - rewrite join_commas_cons, (arg_passes a Ha) by lia. rewrite top_comma, Hstrip.
    rewrite IH; [rewrite <- app_assoc; reflexivity|discriminate|exact Hrest|reflexivity].
Qed.

Example nested_example :
  let a := ACall "States.Array" [ACall "States.Array" [ACall "States.Array" [AAtom "1"]];
                                 AStr [SChar "a"; SChar ","; SChar "("; SEsc quote_char; SChar ")"]; AAtom "$.x"] in
  top_ok a /\ split_args (join_commas (map render_arg [a; AAtom "2"])) = Some [render_arg a; "2"].
Proof. split; [repeat split; try reflexivity; discriminate | vm_compute; reflexivity]. Qed.
