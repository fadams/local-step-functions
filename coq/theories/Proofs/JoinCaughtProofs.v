(* Model/JoinCaught.v: a slot marked by a caught failure blocks the join like an empty one, and every join that a run
   announces carries the outputs of a fully done array (`crun_joins`). *)
From Coq Require Import List Arith Bool.
Import ListNotations.
From LSF Require Import Join JoinProofs JoinCaught.

Lemma dones_length {A} (l : list (slot A)) : all_done l = true -> length (dones l) = length l.
Proof. induction l as [|[| |v] l IH]; cbn; intros H; try discriminate; [reflexivity|]. f_equal. apply IH, H. Qed.

Lemma ccollect_done_fst {A} mc (r : list (slot A)) s i v : fst (ccollect mc r s (BDone i v)) = set_nth i (SDone v) r.
Proof. cbn [ccollect]. destruct (all_done _); [reflexivity|]. destruct (negb _ && _); reflexivity. Qed.

Lemma ccollect_length {A} mc (r : list (slot A)) s e : length (fst (ccollect mc r s e)) = length r.
Proof. destruct e as [i|i v]; [|rewrite ccollect_done_fst]; apply set_nth_length. Qed.

Theorem join_only_when_all_done {A} mc (r : list (slot A)) s e r' res :
  ccollect mc r s e = (r', CJoin res) -> all_done r' = true /\ res = dones r'.
Proof.
  destruct e as [i|i v]; cbn [ccollect]; [discriminate|].
  destruct (all_done (set_nth i (SDone v) r)) eqn:E.
  - intros H. inversion H; subst. split; [exact E|reflexivity].
  - destruct (negb (Nat.eqb mc 0) && _); discriminate.
Qed.

(* the marker is overwritten by the eventual output of the branch: after BCaught i ... BDone i v the slot holds v *)
Theorem caught_then_done {A} mc (r : list (slot A)) s i v : i < length r ->
  nth_error (fst (ccollect mc (fst (ccollect mc r s (BCaught i))) s (BDone i v))) i = Some (SDone v).
Proof.
  intros Hi. rewrite ccollect_done_fst. apply nth_set_same. rewrite ccollect_length. exact Hi.
Qed.

Definition final_slots {A} (n : nat) (evs : list (bev A)) : list (slot A) := fst (crun (repeat SEmpty n) evs).

Lemma crun_cons {A} (r : list (slot A)) e evs :
  crun r (e :: evs) =
  (fst (crun (fst (ccollect 0 r 0 e)) evs), snd (ccollect 0 r 0 e) :: snd (crun (fst (ccollect 0 r 0 e)) evs)).
Proof. cbn [crun]. destruct (ccollect 0 r 0 e) as [r' a]. cbn [fst snd]. destruct (crun r' evs). reflexivity. Qed.

Lemma crun_length {A} (evs : list (bev A)) : forall r, length (fst (crun r evs)) = length r.
Proof.
  induction evs as [|e evs IH]; intros r; [reflexivity|]. rewrite crun_cons. cbn [fst]. rewrite IH. apply ccollect_length.
Qed.

(* no join is ever announced with a slot that is not an output: every CJoin in the run carries exactly the outputs of a fully done array *)
Theorem crun_joins {A} (evs : list (bev A)) : forall r res, In (CJoin res) (snd (crun r evs)) ->
  exists r', length r' = length r /\ all_done r' = true /\ res = dones r'.
Proof.
  induction evs as [|e evs IH]; intros r res Hin; [destruct Hin|]. rewrite crun_cons in Hin. cbn [snd] in Hin.
  rewrite <- (ccollect_length 0 r 0 e). destruct Hin as [E|Hin]; [|apply IH; exact Hin].
  destruct (ccollect 0 r 0 e) as [r' a] eqn:C. cbn [snd] in E. subst a.
  exists r'. split; [reflexivity|]. eapply join_only_when_all_done. exact C.
Qed.

Example caught_run :
  crun (repeat SEmpty 3) [BDone 1 11; BCaught 0; BDone 2 12; BDone 0 10] =
  ([SDone 10; SDone 11; SDone 12], [CWait; CWait; CWait; CJoin [10; 11; 12]]).
Proof. reflexivity. Qed.
