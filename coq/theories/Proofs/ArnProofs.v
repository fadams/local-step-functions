(* Round trips of the generated arn.py, the shapes of the ARNs that the derivation sites (Gen/Sites_gen.v)
   mint and take apart, and the name rule of the two front ends. *)
From LSF Require Import PyStr Py GenTypes Arn_gen Names.
Open Scope string_scope.

Definition colon : ascii := ":"%char.
Definition slash : ascii := "/"%char.
Definition nocolon (s : string) : Prop := has_char colon s = false.
Definition noslash (s : string) : Prop := has_char slash s = false.

Record parts := {
  p_arn : string; p_partition : string; p_service : string; p_region : string;
  p_account : string; p_rtype : option string; p_resource : string }.

Definition wf_parts (p : parts) : Prop :=
  nocolon (p_arn p) /\ nocolon (p_partition p) /\ nocolon (p_service p) /\
  nocolon (p_region p) /\ nocolon (p_account p) /\ noslash (p_resource p) /\
  match p_rtype p with
  | None => nocolon (p_resource p)
  | Some t => t <> "" /\ nocolon t /\ noslash t
  end.

Definition rtype_pv (o : option string) : pv :=
  match o with None => PNone | Some t => PStr t end.

Definition parts_dict (p : parts) : pv :=
  PDict [("arn", PStr (p_arn p)); ("partition", PStr (p_partition p));
         ("service", PStr (p_service p)); ("region", PStr (p_region p));
         ("account", PStr (p_account p)); ("resource", PStr (p_resource p));
         ("resource_type", rtype_pv (p_rtype p))].

Definition create_of (p : parts) : option pv :=
  create_arn (PStr (p_resource p)) (PStr (p_arn p)) (PStr (p_partition p)) (PStr (p_service p))
             (PStr (p_region p)) (PStr (p_account p)) (rtype_pv (p_rtype p)).

Definition render (p : parts) : string :=
  p_arn p ++ ":" ++ p_partition p ++ ":" ++ p_service p ++ ":" ++ p_region p ++ ":" ++
  p_account p ++ ":" ++
  match p_rtype p with None => p_resource p | Some t => t ++ ":" ++ p_resource p end.

(* Evaluation of the translated programs on values of known shape: dictionaries with literal keys, lists
   indexed by literals ([Pos.to_nat] is [simpl never], hence the [unfold]).  [parse_arn] and [create_arn]
   stay folded: they are rewritten with their lemmas. *)
Ltac py_eval :=
  cbn [bind py_add py_in py_split py_rpartition py_getitem py_setitem py_get one_char dict_get dict_set
       parts_dict rtype_pv p_arn p_partition p_service p_region p_account p_rtype p_resource
       String.eqb Ascii.eqb Bool.eqb Z.ltb Z.compare Z.to_nat map length Nat.eqb];
  unfold Pos.to_nat; cbn [Pos.iter_op Nat.add nth_error bind].

Lemma parse_arn_fields a pa s r ac res :
  nocolon a -> nocolon pa -> nocolon s -> nocolon r -> nocolon ac ->
  parse_arn (PStr (a ++ ":" ++ pa ++ ":" ++ s ++ ":" ++ r ++ ":" ++ ac ++ ":" ++ res)) =
  Some (parts_dict
          match find_char slash res, find_char colon res with
          | Some (t, x), _ | None, Some (t, x) => Build_parts a pa s r ac (Some t) x
          | None, None => Build_parts a pa s r ac None res
          end).
Proof.
  intros Ha Hpa Hs Hr Hac. unfold parse_arn. cbn [py_split one_char bind append].
  change ":"%char with colon. repeat (rewrite split_char_n_app by assumption). cbn [split_char_n].
  py_eval. change "/"%char with slash. rewrite (has_char_find slash), (has_char_find colon).
  destruct (find_char slash res) as [[t x]|] eqn:Fs; py_eval.
  - cbn [split_char_n]. rewrite Fs. py_eval. reflexivity.
  - destruct (find_char colon res) as [[t x]|] eqn:Fc; py_eval; [|reflexivity].
    cbn [split_char_n]. rewrite Fc. py_eval. reflexivity.
Qed.

Lemma parse_render p : wf_parts p -> parse_arn (PStr (render p)) = Some (parts_dict p).
Proof.
  destruct p as [a pa s r ac rt res]. intros (Ha & Hpa & Hs & Hr & Hac & Hres & Hrt); cbn in * |-.
  unfold render. cbn [p_arn p_partition p_service p_region p_account p_rtype p_resource].
  rewrite parse_arn_fields by assumption. destruct rt as [t|].
  - destruct Hrt as (_ & Htc & Hts). change (":" ++ res) with (String colon res).
    assert (has_char slash (t ++ String colon res) = false) as Hts'
      by (rewrite has_char_app; cbn [has_char]; rewrite Hts, Hres; reflexivity).
    rewrite (find_char_none _ _ Hts'), (find_char_app _ _ _ Htc). reflexivity.
  - rewrite !find_char_none by assumption. reflexivity.
Qed.

(* an empty resource type is falsy: [create_arn] would leave it out *)
Lemma create_of_render p : p_rtype p <> Some "" -> create_of p = Some (PStr (render p)).
Proof.
  destruct p as [a pa s r ac [t|] res]; cbn [p_rtype]; intros H; unfold create_of, create_arn, create_arn_body, render;
    cbn [py_isdict py_truthy rtype_pv negb p_arn p_partition p_service p_region p_account p_rtype p_resource].
  - destruct (String.eqb_spec t ""); [congruence|].
    cbn [negb py_add bind py_format py_format_aux py_str]. rewrite append_nil_r, append_assoc. reflexivity.
  - cbn [py_format py_format_aux py_str bind]. rewrite append_nil_r. reflexivity.
Qed.

Lemma wf_rtype p : wf_parts p -> p_rtype p <> Some "".
Proof. intros (_ & _ & _ & _ & _ & _ & H) E. rewrite E in H. apply H. reflexivity. Qed.

Lemma create_arn_typed res a pa s r ac t :
  t <> "" ->
  create_arn (PStr res) (PStr a) (PStr pa) (PStr s) (PStr r) (PStr ac) (PStr t)
  = Some (PStr (render (Build_parts a pa s r ac (Some t) res))).
Proof. intros H. apply (create_of_render (Build_parts a pa s r ac (Some t) res)). cbn [p_rtype]. congruence. Qed.

(* create_of p is this call, by unfolding *)
Lemma create_arn_kw_parts p : p_rtype p <> Some "" -> create_arn_kw (parts_dict p) = Some (PStr (render p)).
Proof. exact (create_of_render p). Qed.

(* a dictionary as first argument stands for keyword arguments *)
Lemma create_arn_parts p a pa s r ac t :
  p_rtype p <> Some "" -> create_arn (parts_dict p) a pa s r ac t = Some (PStr (render p)).
Proof.
  intros H. unfold create_arn, create_arn_body. change (py_isdict (parts_dict p)) with true. cbv iota.
  rewrite (create_arn_kw_parts p H). reflexivity.
Qed.

Lemma parts_dict_set_rtype a pa s r ac rt res t :
  py_setitem (parts_dict (Build_parts a pa s r ac rt res)) (PStr "resource_type") (PStr t)
  = Some (parts_dict (Build_parts a pa s r ac (Some t) res)).
Proof. reflexivity. Qed.

Lemma render_app a pa s r ac t res x :
  render (Build_parts a pa s r ac t res) ++ x = render (Build_parts a pa s r ac t (res ++ x)).
Proof.
  unfold render. cbn [p_arn p_partition p_service p_region p_account p_rtype p_resource]. destruct t; rewrite !append_assoc; reflexivity.
Qed.

Definition sm_arn (region account name : string) : string :=
  render {| p_arn := "arn"; p_partition := "aws"; p_service := "states"; p_region := region;
            p_account := account; p_rtype := Some "stateMachine"; p_resource := name |}.

Definition exec_prefix (region account name : string) : string :=
  render {| p_arn := "arn"; p_partition := "aws"; p_service := "states"; p_region := region;
            p_account := account; p_rtype := Some "execution"; p_resource := name |}.

Definition exec_arn (region account name ename : string) : string :=
  exec_prefix region account name ++ String colon ename.

Lemma parse_states_arn region account t name :
  t <> "" -> nocolon t -> noslash t -> nocolon region -> nocolon account -> noslash name ->
  parse_arn (PStr (render (Build_parts "arn" "aws" "states" region account (Some t) name)))
  = Some (parts_dict (Build_parts "arn" "aws" "states" region account (Some t) name)).
Proof. intros. apply parse_render. repeat split; try assumption; reflexivity. Qed.

(* how the mint sites build an execution ARN *)
Lemma create_exec_arn region account name ename :
  create_arn (PStr ((name ++ ":") ++ ename)) (PStr "arn") (PStr "aws") (PStr "states") (PStr region) (PStr account) (PStr "execution")
  = Some (PStr (exec_arn region account name ename)).
Proof.
  rewrite create_arn_typed by discriminate. rewrite append_assoc. unfold exec_arn, exec_prefix.
  rewrite render_app. reflexivity.
Qed.

(* A role ARN that CreateStateMachine accepts (ApiSpec.valid_role_arn: ^arn:aws:iam::[0-9]+:role\/.+$),
   written with the separators at which [parse_arn] cuts it.  Its account is a run of digits, which is
   how [nocolon account] is met there. *)
Definition role_arn (account rest : string) : string :=
  "arn" ++ String colon ("aws" ++ String colon ("iam" ++ String colon ("" ++ String colon
    (account ++ String colon ("role" ++ String slash rest))))).

Lemma role_arn_shape account rest :
  "arn:aws:iam::" ++ account ++ ":role/" ++ rest = role_arn account rest.
Proof. unfold role_arn. cbn [append]. reflexivity. Qed.

Lemma all_digits_nocolon s : forall_char is_digit s = true -> nocolon s.
Proof.
  unfold nocolon. induction s as [|a r IH]; cbn [forall_char has_char]; intros H; [reflexivity|].
  apply andb_true_iff in H as [Ha Hr]. rewrite (IH Hr), orb_false_r.
  apply ascii_eqb_neq. intros ->. discriminate.
Qed.

Lemma parse_role_arn account rest :
  nocolon account ->
  parse_arn (PStr (role_arn account rest)) = Some (parts_dict (Build_parts "arn" "aws" "iam" "" account (Some "role") rest)).
Proof.
  intros H.
  pose proof (parse_arn_fields "arn" "aws" "iam" "" account ("role" ++ String slash rest) eq_refl eq_refl eq_refl eq_refl H) as E.
  rewrite (find_char_app slash "role") in E by reflexivity. exact E.
Qed.

(* the two tables list the same code points, in whatever order; compared in binary, since on nat every test
   walks up to the code point *)
Definition same_members (t1 t2 : list nat) : bool :=
  let t1 := map N.of_nat t1 in let t2 := map N.of_nat t2 in
  forallb (fun n => existsb (N.eqb n) t2) t1 && forallb (fun n => existsb (N.eqb n) t1) t2.

Lemma existsb_of_nat n t : existsb (N.eqb (N.of_nat n)) (map N.of_nat t) = existsb (Nat.eqb n) t.
Proof.
  induction t as [|m t IH]; cbn [map existsb]; [reflexivity|]. rewrite IH. f_equal.
  destruct (N.eqb_spec (N.of_nat n) (N.of_nat m)), (Nat.eqb_spec n m); try reflexivity; lia.
Qed.

Lemma same_members_forbidden t1 t2 : same_members t1 t2 = true -> forall a, forbidden t1 a = forbidden t2 a.
Proof.
  unfold same_members, forbidden. intros H a. apply andb_true_iff in H as [H1 H2]. rewrite forallb_forall in H1, H2.
  rewrite <- !existsb_of_nat. apply eq_true_iff_eq. rewrite !existsb_exists.
  split; intros (m & Hm & E); apply N.eqb_eq in E; rewrite E; apply existsb_exists; auto.
Qed.

(* the rule of both front ends, with the table as the only parameter, is the documented rule *)
Lemma valid_name_of_is_spec tbl s :
  same_members tbl spec_forbidden = true -> valid_name_of Gt_ 0 Lt_ 81 Plain tbl s = spec_valid_name s.
Proof.
  intros H. unfold valid_name_of, spec_valid_name. cbn [cmp_holds rx_search]. f_equal; [f_equal|].
  - destruct (N.ltb_spec 0 (N.of_nat (String.length s))), (Nat.leb_spec 1 (String.length s)); try reflexivity; lia.
  - destruct (N.ltb_spec (N.of_nat (String.length s)) 81), (Nat.leb_spec (String.length s) 80); try reflexivity; lia.
  - f_equal. apply exists_char_ext, same_members_forbidden, H.
Qed.

Lemma spec_valid_name_safe s :
  spec_valid_name s = true -> nocolon s /\ noslash s /\ 1 <= String.length s <= 80.
Proof.
  unfold spec_valid_name. intros H. apply andb_true_iff in H as [H H3]. apply andb_true_iff in H as [H1 H2].
  apply Nat.leb_le in H1, H2. apply negb_true_iff in H3.
  (* ':' and '/' are in the table *)
  exact (conj (exists_char_false _ colon _ H3 eq_refl) (conj (exists_char_false _ slash _ H3 eq_refl) (conj H1 H2))).
Qed.
