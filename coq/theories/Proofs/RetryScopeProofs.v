(* Model/RetryScope.v: the one RetryCount of the event context, handed to the branch and put back at the join.  From
   any count c of the fan-out, the remaining attempts each give the Task its whole back-off sequence from zero
   (`counters_do_not_leak`). *)
From Coq Require Import List Arith Lia.
Import ListNotations.
From LSF Require Import RetryScope.

Lemma inner_loop_from tm ti k s fuel : k <= tm -> tm - k < fuel ->
  inner_loop tm ti fuel {| ctx := k; saved := s |} = (map (fun j => ti * 2 ^ j) (seq k (tm - k)), {| ctx := tm; saved := s |}).
Proof.
  revert k. induction fuel as [|f IH]; intros k Hk Hf; [lia|].
  cbn [inner_loop]. unfold inner_fail. cbn [ctx saved].
  destruct (Nat.ltb_spec k tm) as [Hlt|Hge].
  - rewrite IH by lia. replace (tm - k) with (S (tm - S k)) by lia. cbn [seq map]. reflexivity.
  - assert (k = tm) as -> by lia. rewrite Nat.sub_diag. reflexivity.
Qed.

(* the first state of a branch starts from zero whatever the fan-out's own count is, and that count is back when the fan-out fails *)
Lemma attempt tm ti c s : 
  inner_loop tm ti (S tm) (enter {| ctx := c; saved := s |}) = (task_delays tm ti, {| ctx := tm; saved := c |}).
Proof. unfold enter. cbn [ctx]. rewrite inner_loop_from by lia. rewrite Nat.sub_0_r. reflexivity. Qed.

(* C07: retry counters do not leak between the fan-out and the state in its branch, in either direction *)
Theorem counters_do_not_leak pm tm pi ti : forall left c s, c + left = pm ->
  run pm tm pi ti (S left) {| ctx := c; saved := s |} = spec tm pi ti left.
Proof.
  induction left as [|l IH]; intros c s E; cbn [run spec]; rewrite attempt; unfold outer_fail, collect; cbn [ctx saved].
  - rewrite (proj2 (Nat.ltb_ge c pm)) by lia. reflexivity.
  - rewrite (proj2 (Nat.ltb_lt c pm)) by lia. do 2 f_equal. apply IH. lia.
Qed.

(* the whole visit from a fresh context: (pm + 1) attempts, each with the Task's full sequence *)
Corollary visit pm tm pi ti : run pm tm pi ti (S pm) {| ctx := 0; saved := 0 |} = spec tm pi ti pm.
Proof. apply counters_do_not_leak. reflexivity. Qed.

Lemma length_task_delays tm ti : length (task_delays tm ti) = tm.
Proof. unfold task_delays. rewrite map_length. apply seq_length. Qed.

Lemma spec_length tm pi ti a : length (spec tm pi ti a) = (S a) * tm + a.
Proof.
  induction a as [|a IH]; cbn [spec]; [rewrite length_task_delays; lia|].
  rewrite app_length, length_task_delays. cbn [length]. rewrite IH. lia.
Qed.

(* hence the Task is invoked exactly (pm + 1) * (tm + 1) times, and the visit ends: MaxAttempts bounds the retries whatever the branch does *)
Corollary invocations pm tm pi ti : S (length (run pm tm pi ti (S pm) {| ctx := 0; saved := 0 |})) = (S pm) * (S tm).
Proof. rewrite visit, spec_length. lia. Qed.

(* what the theorem rules out: a delegate that leaves the count in the context, so that the Task of the second attempt starts at 1 *)
Example leaky_entry_differs :
  let enter' (r : regs) := {| ctx := ctx r; saved := ctx r |} in
  fst (inner_loop 2 1 3 (enter' {| ctx := 1; saved := 0 |})) <> task_delays 2 1.
Proof. cbv. discriminate. Qed.

Example visit_example : run 2 2 5 1 3 {| ctx := 0; saved := 0 |} = [1; 2; 5; 1; 2; 5; 1; 2].
Proof. reflexivity. Qed.
