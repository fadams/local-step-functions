(* The protocol model (Model/Protocol.v) keeps its promises for every schedule, every decision of the data
   plane and any number of concurrent executions.  `step_shape` reduces the step function to five shapes;
   what holds of every step (`step_sync`, the acknowledgement comes last, the invariants `winv` and `TInv`) is
   proved shape by shape.  The invariant `Inv` has three parts, each with the lemmas for what a handler does to
   it: ids are handed out once (`Fresh`); every carrier - a queued or held event - knows the record of its
   execution, an execution has at most one carrier and a RUNNING one has one (`Carriers`); record, notifications
   and history of an execution are in step (`Lives`, `life`).  C02, C03, C09 and C11 read their clauses off
   `lifecycle` and `winv_tokens`. *)
From Coq Require Import List Arith Bool Lia Permutation Morphisms.
Import ListNotations.
From LSF Require Import TraceSpec Protocol ProtocolCheck.

Definition cntx (x : xid) (l : list event) : nat := length (filter (fun e => Nat.eqb (e_x e) x) l).
Definition hevents (w : world) : list event := map fst (held w).
Definition tokens (w : world) (x : xid) : nat := cntx x (queue w) + cntx x (hevents w).
Definition live_ids (w : world) : list mid := map e_id (queue w) ++ map e_id (hevents w).
Definition tids (w : world) : list tid := map (fun p => timer_of (snd p)) (held w).
Definition proj_x {A} (x : xid) (l : list (xid * A)) : list A := map snd (filter (fun p => Nat.eqb (fst p) x) l).

Lemma cntx_count x l : cntx x l = count_occ Nat.eq_dec (map e_x l) x.
Proof.
  unfold cntx. induction l as [|a l IH]; cbn [map filter count_occ]; [reflexivity|].
  destruct (Nat.eqb_spec (e_x a) x), (Nat.eq_dec (e_x a) x); cbn [length]; congruence.
Qed.

Lemma cntx_app x a b : cntx x (a ++ b) = cntx x a + cntx x b.
Proof. rewrite !cntx_count, map_app. apply count_occ_app. Qed.

Lemma cntx_pos x l e : In e l -> e_x e = x -> 1 <= cntx x l.
Proof. intros Hin <-. rewrite cntx_count. apply count_occ_In, in_map, Hin. Qed.

Lemma cntx_pos_ex x l : 1 <= cntx x l -> exists e, In e l /\ e_x e = x.
Proof. rewrite cntx_count. intros H. apply count_occ_In, in_map_iff in H as (e & Hx & He). exists e. auto. Qed.

Lemma cntx_nodup x l : NoDup (map e_x l) -> cntx x l <= 1.
Proof. intros H. rewrite cntx_count. apply NoDup_count_occ, H. Qed.

Lemma proj_x_app {A} x (a b : list (xid * A)) : proj_x x (a ++ b) = proj_x x a ++ proj_x x b.
Proof. unfold proj_x. rewrite filter_app, map_app. reflexivity. Qed.

Lemma proj_x_log {A} x y (l : list (xid * A)) hs :
  proj_x y (l ++ map (pair x) hs) = proj_x y l ++ (if Nat.eqb x y then hs else []).
Proof.
  rewrite proj_x_app. f_equal. unfold proj_x.
  induction hs as [|h hs IH]; cbn [map filter fst]; destruct (Nat.eqb x y); cbn [map snd]; try f_equal; auto.
Qed.

Lemma find_event_perm m q e : find_event m q = Some e -> Permutation q (e :: remove_event m q).
Proof.
  induction q as [|a q IH]; cbn; [discriminate|]. destruct (Nat.eqb (e_id a) m).
  - intros [= <-]. reflexivity.
  - intros H. rewrite (IH H) at 1. apply perm_swap.
Qed.

Lemma find_event_unique q e : NoDup (map e_id q) -> In e q -> find_event (e_id e) q = Some e.
Proof.
  induction q as [|a q IH]; cbn [map find_event In]; intros Hnd Hin; [contradiction|]. inversion Hnd as [|? ? Ha Hq]; subst.
  destruct Hin as [->|Hin]; [rewrite Nat.eqb_refl; reflexivity|].
  destruct (Nat.eqb_spec (e_id a) (e_id e)) as [E|E]; [|apply IH; assumption].
  exfalso. apply Ha. rewrite E. apply in_map. exact Hin.
Qed.

Lemma find_event_some e q : In e q -> exists e', find_event (e_id e) q = Some e'.
Proof.
  induction q as [|a q IH]; cbn; intros H; [contradiction|]. destruct (Nat.eqb_spec (e_id a) (e_id e)) as [E|E]; [exists a; reflexivity|].
  destruct H as [H|H]; [subst; contradiction|apply IH; exact H].
Qed.

Definition held_ids (h : list (event * phase)) : list mid := map e_id (map fst h).

Lemma remove_held_perm h e p : NoDup (held_ids h) -> In (e, p) h -> Permutation h ((e, p) :: remove_held (e_id e) h).
Proof.
  induction h as [|[a q] h IH]; cbn [held_ids map fst remove_held In]; intros Hnd Hin; [contradiction|]. inversion Hnd as [|? ? Ha Hh]; subst.
  destruct (Nat.eqb_spec (e_id a) (e_id e)) as [E|E].
  - destruct Hin as [Hin|Hin]; [rewrite Hin; reflexivity|].
    exfalso. apply Ha. rewrite E. exact (in_map e_id _ _ (in_map fst _ _ Hin)).
  - destruct Hin as [Hin|Hin]; [inversion Hin; subst; contradiction|]. rewrite (IH Hh Hin) at 1. apply perm_swap.
Qed.

Lemma remove_held_sub m h : exists l, Permutation h (l ++ remove_held m h).
Proof.
  induction h as [|[a q] h (l & IH)]; [exists []; reflexivity|]. cbn [remove_held]. destruct (Nat.eqb (e_id a) m).
  - exists [(a, q)]. reflexivity.
  - exists l. rewrite IH at 1. apply Permutation_middle.
Qed.

Lemma remove_held_absent m h : ~ In m (held_ids h) -> remove_held m h = h.
Proof.
  induction h as [|[a q] h IH]; cbn [held_ids map fst remove_held In]; intros N; [reflexivity|].
  destruct (Nat.eqb_spec (e_id a) m) as [E|E]; [exfalso; apply N; left; exact E|]. f_equal. apply IH. intros F; apply N; right; exact F.
Qed.

Lemma find_held_in m h e p : find_held m h = Some (e, p) -> In (e, p) h.
Proof.
  induction h as [|[a q] h IH]; cbn; [discriminate|]. destruct (Nat.eqb (e_id a) m); [intros [= <- <-]; left; reflexivity|right; auto].
Qed.

Lemma find_by_timer_in t h e p : find_by_timer t h = Some (e, p) -> In (e, p) h.
Proof.
  induction h as [|[a q] h IH]; cbn; [discriminate|]. destruct (Nat.eqb (timer_of q) t); [intros [= <- <-]; left; reflexivity|right; auto].
Qed.

Lemma set_phase_fst m p h : map fst (set_phase m p h) = map fst h.
Proof. induction h as [|[a q] h IH]; cbn; [reflexivity|]. destruct (Nat.eqb (e_id a) m); cbn; [reflexivity|rewrite IH; reflexivity]. Qed.

Lemma in_hevents w e p : In (e, p) (held w) -> In e (hevents w).
Proof. intros H. unfold hevents. apply (in_map fst) in H. exact H. Qed.

Lemma get_status_set_same x st l : get_status x (set_status x st l) = Some st.
Proof.
  induction l as [|[y s] l IH]; cbn; [rewrite Nat.eqb_refl; reflexivity|].
  destruct (Nat.eqb_spec y x) as [->|N]; cbn; [rewrite Nat.eqb_refl; reflexivity|].
  destruct (Nat.eqb_spec y x); [contradiction|exact IH].
Qed.

Lemma get_status_set_other x y st l : x <> y -> get_status y (set_status x st l) = get_status y l.
Proof.
  intros N. induction l as [|[z s] l IH]; cbn.
  - destruct (Nat.eqb_spec x y); [contradiction|reflexivity].
  - destruct (Nat.eqb_spec z x) as [->|N']; cbn; [destruct (Nat.eqb_spec x y); [contradiction|reflexivity]|].
    destruct (Nat.eqb z y); [reflexivity|exact IH].
Qed.

Lemma NoDup_app_inv {A} (a b : list A) : NoDup (a ++ b) -> NoDup a /\ NoDup b /\ forall m, In m a -> ~ In m b.
Proof.
  induction a as [|x a IH]; cbn; intros H; [repeat split; [constructor|exact H|intros m []]|].
  inversion H as [|? ? Hx Hab]; subst. destruct (IH Hab) as (Ha & Hb & Hd). repeat split; [|exact Hb|].
  - constructor; [|exact Ha]. intros F. apply Hx, in_or_app. left. exact F.
  - intros m [<-|Hm]; [intros F; apply Hx, in_or_app; right; exact F|apply Hd; exact Hm].
Qed.

(* the handler of e starts: e leaves the queue; start_execution comes first when e is a start event *)
Definition delivered (w : world) (m : mid) (e : event) : world :=
  let w0 := with_queue w (remove_event m (queue w)) in
  match e_state e with Some _ => w0 | None => started w0 (e_x e) end.

Lemma delivered_fields w m e :
  held (delivered w m e) = held w /\ next_id (delivered w m e) = next_id w /\ next_tid (delivered w m e) = next_tid w.
Proof. unfold delivered. destruct (e_state e); repeat split. Qed.

Lemma id_ok_delivered w m e d n : id_ok (delivered w m e) d n = id_ok w d n.
Proof. unfold id_ok. destruct (delivered_fields w m e) as (_ & -> & _). reflexivity. Qed.

Definition start_effects (e : event) : list effect :=
  match e_state e with
  | None => [Record_ (e_x e) Running; History (e_x e) HExecutionStarted; Notify (e_x e) Running]
  | Some _ => []
  end.
Definition entered (e : event) (s : sname) : list hkind := if e_retry e then [] else [HStateEntered s].
Definition clear_timer (ot : option tid) : list effect := match ot with Some t => [ClearTimer t] | None => [] end.
Definition with_replies (w : world) (rp : list (mid * bool)) : world :=
  {| queue := queue w; held := held w; requests := requests w; replies := rp; next_id := next_id w; next_tid := next_tid w;
     statuses := statuses w; notes := notes w; hist := hist w; acked := acked w |}.

Definition quiet_h (h : hkind) : bool := negb (is_terminal_h h) && negb (hkind_eqb h HExecutionStarted).
Definition quiet (l : list hkind) : Prop := forallb quiet_h l = true.

Lemma quiet_cases : quiet [] /\ (forall s, quiet [HStateEntered s]) /\ (forall s, quiet [HStateExited s]) /\ quiet [HTaskScheduled] /\
  quiet [HTaskSucceeded] /\ quiet [HTaskFailed] /\ quiet [HTaskTimedOut].
Proof. unfold quiet. repeat split; intros; reflexivity. Qed.

Lemma quiet_app a b : quiet a -> quiet b -> quiet (a ++ b).
Proof. unfold quiet. rewrite forallb_app. intros -> ->. reflexivity. Qed.

Lemma quiet_entered e s : quiet (entered e s).
Proof. unfold entered. destruct (e_retry e); reflexivity. Qed.

Lemma hkind_eqb_eq a b : hkind_eqb a b = true -> a = b.
Proof. destruct a, b; cbn; try discriminate; try reflexivity; intros H; apply Nat.eqb_eq in H; congruence. Qed.

(* ExecutionStarted and the terminal events do not occur among quiet events *)
Lemma quiet_absent h r : quiet r -> quiet_h h = false -> existsb (hkind_eqb h) r = false.
Proof.
  unfold quiet. induction r as [|a r IH]; cbn [forallb existsb]; intros Q N; [reflexivity|]. apply andb_prop in Q as (Qa & Qr).
  rewrite (IH Qr N), orb_false_r. destruct (hkind_eqb h a) eqn:E; [|reflexivity]. apply hkind_eqb_eq in E. congruence.
Qed.

Lemma nothing_after_quiet r tl : quiet r -> nothing_after_terminal (r ++ tl) = nothing_after_terminal tl.
Proof.
  unfold quiet. induction r as [|h r IH]; cbn [forallb nothing_after_terminal app]; intros H; [reflexivity|].
  apply andb_prop in H as (H1 & H2). apply andb_prop in H1 as (H1 & _). destruct (is_terminal_h h); [discriminate|]. apply IH, H2.
Qed.

(* Every step is of one of five shapes: nothing that the invariants read changes (a worker answers, an orphaned reply
   is dropped); the Task delegate sends its request; a delivered event is parked on a timer; a delivered event is
   handled to its end; a held event is handled to its end (after its reply, `ot` is the timeout timer it clears).
   What holds of every step is proved once per shape. *)
Inductive shape (w : world) : world -> list effect -> Prop :=
| sh_quiet rq rp :
    shape w {| queue := queue w; held := held w; requests := rq; replies := rp; next_id := next_id w; next_tid := next_tid w;
               statuses := statuses w; notes := notes w; hist := hist w; acked := acked w |} []
| sh_sched e t n : In (e, PDelegate t) (held w) -> next_tid w <= n ->
    shape w {| queue := queue w; held := set_phase (e_id e) (PPending n) (held w); requests := requests w ++ [e_id e];
               replies := replies w; next_id := next_id w; next_tid := S n; statuses := statuses w; notes := notes w;
               hist := hist w ++ [(e_x e, HTaskScheduled)]; acked := acked w |}
            [SetTimer n; SendRpc (e_id e); History (e_x e) HTaskScheduled]
| sh_park m e s p : find_event m (queue w) = Some e -> next_tid w <= timer_of p ->
    shape w (with_held (delivered w m e) (held w ++ [(e, p)]) (S (timer_of p))
                       (hist (delivered w m e) ++ map (pair (e_x e)) (entered e s)))
            (start_effects e ++ map (History (e_x e)) (entered e s) ++ [SetTimer (timer_of p)])
| sh_deliver m e s d n : find_event m (queue w) = Some e -> id_ok w d n = true ->
    shape w (finished (delivered w m e) e s d n (entered e s))
            (start_effects e ++ map (History (e_x e)) (entered e s) ++ finish_effects n e s d ++ [Ack (e_id e)])
| sh_handle e p rp s d n ot hs : In (e, p) (held w) -> id_ok w d n = true -> quiet hs ->
    shape w (finished (with_replies w rp) e s d n hs)
            (clear_timer ot ++ map (History (e_x e)) hs ++ finish_effects n e s d ++ [Ack (e_id e)]).

Lemma enter_shape kind w m e s d n w' effs :
  find_event m (queue w) = Some e ->
  enter kind (delivered w m e) e s d n = Some (w', effs) -> shape w w' (start_effects e ++ effs).
Proof.
  intros Hf H. unfold enter in H. fold (entered e s) in H.
  destruct (delivered_fields w m e) as (Eh & _ & Et). rewrite id_ok_delivered, Et, Eh in H.
  destruct (kind s).
  (* Pass, Choice, Succeed and Fail handle the event to its end; Wait and Task park it on a timer *)
  1-4: destruct (id_ok w d n) eqn:Hid; [|discriminate]; injection H as <- <-; apply sh_deliver; assumption.
  all: destruct (Nat.leb_spec (next_tid w) n) as [L|L]; [|discriminate]; injection H as <- <-.
  - apply (sh_park w m e s (PWait n)); assumption.
  - apply (sh_park w m e s (PDelegate n)); assumption.
Qed.

Lemma step_shape kind s0 w i w' effs : step kind s0 w i = Some (w', effs) -> shape w w' effs.
Proof.
  intros H. destruct i as [m d n|t d n|corr ok|corr d n|t]; cbn [step] in H.
  - destruct (find_event m (queue w)) as [e|] eqn:Hf; [|discriminate].
    pose proof (enter_shape kind w m e) as Hs. unfold delivered, start_effects in Hs. destruct (e_state e) as [s|].
    + destruct (decision_ok _ _); [|discriminate]. exact (Hs _ _ _ _ _ Hf H).
    + destruct (decision_ok _ _); [|discriminate]. destruct (enter kind _ e s0 d n) as [[w2 effs2]|] eqn:He; [|discriminate].
      injection H as <- <-. exact (Hs _ _ _ _ _ Hf He).
  - destruct (find_by_timer t (held w)) as [[e p]|] eqn:Hf; [|discriminate]. apply find_by_timer_in in Hf as Hin.
    pose proof (fun d n ot hs => sh_handle w e p (replies w) (state_of s0 e) d n ot hs Hin) as Hh.
    destruct p as [t'|t'|t'].
    + (* the delegate timer: with End the request goes out; any other decision is an error, handled at once *)
      destruct d as [s'| | |].
      2: { destruct (Nat.leb_spec (next_tid w) n); [|discriminate]. injection H as <- <-. apply (sh_sched w e t'); assumption. }
      all: destruct (id_ok w _ n) eqn:Hid; [|discriminate]; injection H as <- <-; exact (Hh _ _ None [] Hid eq_refl).
    + destruct (decision_ok KWait d && id_ok w d n) eqn:Hc; [|discriminate]. apply andb_prop in Hc as (_ & Hid).
      injection H as <- <-. exact (Hh _ _ None [] Hid eq_refl).
    + destruct d as [s'| | |]; [|discriminate| |];
        (destruct (id_ok w _ n) eqn:Hid; [|discriminate]; injection H as <- <-; exact (Hh _ _ None [HTaskTimedOut] Hid eq_refl)).
  - destruct (existsb _ _); [|discriminate]. injection H as <- <-. apply sh_quiet.
  - destruct (replies w) as [|[c ok] rest]; [discriminate|]. destruct (Nat.eqb c corr); [|discriminate].
    destruct (find_held corr (held w)) as [[e [t'|t'|t']]|] eqn:Hf.
    (* no request is pending under that id: the reply is dropped *)
    1,2,4: injection H as <- <-; apply sh_quiet.
    destruct (_ && id_ok w d n) eqn:Hc; [|discriminate]. apply andb_prop in Hc as (_ & Hid). injection H as <- <-.
    apply (sh_handle w e (PPending t') rest _ d n (Some t') [if ok then HTaskSucceeded else HTaskFailed]); [eapply find_held_in; eassumption|exact Hid|destruct ok; reflexivity].
  - destruct (find_by_timer t (held w)) as [[e [t'|t'|t']]|] eqn:Hf; try discriminate. apply find_by_timer_in in Hf as Hin.
    injection H as <- <-. exact (sh_handle w e _ (replies w) (state_of s0 e) DFailed 0 None [] Hin eq_refl eq_refl).
Qed.

Fixpoint enotes (l : list effect) : list (xid * status) :=
  match l with [] => [] | Notify x st :: r => (x, st) :: enotes r | _ :: r => enotes r end.
Fixpoint ehist (l : list effect) : list (xid * hkind) :=
  match l with [] => [] | History x h :: r => (x, h) :: ehist r | _ :: r => ehist r end.

Lemma enotes_app a b : enotes (a ++ b) = enotes a ++ enotes b.
Proof. induction a as [|[] a IH]; cbn; rewrite ?IH; reflexivity. Qed.
Lemma ehist_app a b : ehist (a ++ b) = ehist a ++ ehist b.
Proof. induction a as [|[] a IH]; cbn; rewrite ?IH; reflexivity. Qed.
Lemma acks_app a b : acks_of (a ++ b) = acks_of a ++ acks_of b.
Proof. induction a as [|[] a IH]; cbn; rewrite ?IH; reflexivity. Qed.

Lemma logs_history x l : enotes (map (History x) l) = [] /\ ehist (map (History x) l) = map (pair x) l /\ acks_of (map (History x) l) = [].
Proof. induction l as [|a l (IH1 & IH2 & IH3)]; cbn; rewrite ?IH2; auto. Qed.

(* the effects of a step are exactly what it appends to the notifications, the history and the acknowledgements *)
Definition synced (w w' : world) (effs : list effect) : Prop :=
  notes w' = notes w ++ enotes effs /\ hist w' = hist w ++ ehist effs /\ acked w' = acked w ++ acks_of effs.

Lemma synced_nil w w' : notes w' = notes w -> hist w' = hist w -> acked w' = acked w -> synced w w' [].
Proof. intros H1 H2 H3. unfold synced. cbn. rewrite H1, H2, H3, !app_nil_r. auto. Qed.

Lemma synced_trans w1 w2 w3 e1 e2 : synced w1 w2 e1 -> synced w2 w3 e2 -> synced w1 w3 (e1 ++ e2).
Proof.
  intros (A1 & A2 & A3) (B1 & B2 & B3). unfold synced.
  rewrite enotes_app, ehist_app, acks_app, B1, B2, B3, A1, A2, A3, <- !app_assoc. auto.
Qed.

Lemma delivered_sync w m e : synced w (delivered w m e) (start_effects e).
Proof. unfold delivered, start_effects. destruct (e_state e); [apply synced_nil; reflexivity|]. unfold synced. cbn. rewrite app_nil_r. auto. Qed.

Lemma finished_sync w e s d n hs pre :
  enotes pre = [] -> ehist pre = map (pair (e_x e)) hs -> acks_of pre = [] ->
  synced w (finished w e s d n hs) (pre ++ finish_effects n e s d ++ [Ack (e_id e)]).
Proof.
  intros P1 P2 P3. unfold synced. rewrite !enotes_app, !ehist_app, !acks_app, P1, P2, P3.
  destruct d; cbn; rewrite ?app_nil_r, <- ?app_assoc; repeat split; reflexivity.
Qed.

Lemma shape_sync w w' effs : shape w w' effs -> synced w w' effs.
Proof.
  destruct 1 as [rq rp|e t n Hin Hn|m e s p Hf Hn|m e s d n Hf Hid|e p rp s d n ot hs Hin Hid Q].
  - apply synced_nil; reflexivity.
  - repeat split; cbn; rewrite ?app_nil_r; reflexivity.
  - destruct (logs_history (e_x e) (entered e s)) as (L1 & L2 & L3). eapply synced_trans; [apply delivered_sync|].
    unfold synced, with_held. cbn [notes hist acked]. rewrite enotes_app, ehist_app, acks_app, L1, L2, L3. cbn. rewrite !app_nil_r. auto.
  - eapply synced_trans; [apply delivered_sync|]. apply finished_sync; apply logs_history.
  - destruct (logs_history (e_x e) hs) as (L1 & L2 & L3). rewrite app_assoc.
    apply (finished_sync (with_replies w rp)); rewrite ?enotes_app, ?ehist_app, ?acks_app, ?L1, ?L2, ?L3; destruct ot; reflexivity.
Qed.

Theorem step_sync kind s0 w i w' effs : step kind s0 w i = Some (w', effs) -> synced w w' effs.
Proof. intros H. apply shape_sync. eapply step_shape. exact H. Qed.

Lemma ack_then_nothing_app m a b : acks_of a = [] -> ack_then_nothing m (a ++ b) = ack_then_nothing m b.
Proof.
  induction a as [|f a IH]; cbn [app acks_of ack_then_nothing]; intros H; [reflexivity|].
  destruct f; try (apply IH; exact H). discriminate.
Qed.

Lemma shape_ack_last w w' effs : shape w w' effs -> forall m, ack_then_nothing m effs = true.
Proof.
  intros H k.
  assert (forall e, acks_of (start_effects e) = []) as A1 by (intros e; unfold start_effects; destruct (e_state e); reflexivity).
  assert (forall n e s d, acks_of (finish_effects n e s d) = []) as A2 by (destruct d; reflexivity).
  assert (forall a, ack_then_nothing k [Ack a] = true) as A3 by (intros a; cbn; destruct (Nat.eqb a k); reflexivity).
  (* in every shape the effects hold no Ack, or are Ack-free segments followed by one final Ack: skip the segments *)
  destruct H as [rq rp|e t n Hin Hn|m e s p Hf Hn|m e s d n Hf Hid|e p rp s d n ot hs Hin Hid Q];
    rewrite ?ack_then_nothing_app by (apply A1 || apply A2 || apply logs_history || (destruct ot; reflexivity)); auto.
Qed.

Definition term_of (st : status) : hkind :=
  match st with Succeeded => HExecutionSucceeded | Failed => HExecutionFailed | Running => HExecutionStarted end.

(* the life of an execution: its record, the statuses notified and the history logged so far *)
Inductive life : option status -> list status -> list hkind -> Prop :=
| life_none : life None [] []
| life_run r : quiet r -> life (Some Running) [Running] (HExecutionStarted :: r)
| life_end st r : st <> Running -> quiet r -> life (Some st) [Running; st] (HExecutionStarted :: r ++ [term_of st]).

Lemma life_starts ns h : life None ns h -> life (Some Running) (ns ++ [Running]) (h ++ [HExecutionStarted]).
Proof. intros L. inversion L. apply (life_run []). reflexivity. Qed.

Lemma life_log ns h hs : life (Some Running) ns h -> quiet hs -> life (Some Running) ns (h ++ hs).
Proof. intros L Q. inversion L; subst; [|congruence]. apply (life_run (r ++ hs)), quiet_app; assumption. Qed.

Lemma life_ends ns h st hs : life (Some Running) ns h -> st <> Running -> quiet hs ->
  life (Some st) (ns ++ [st]) (h ++ hs ++ [term_of st]).
Proof.
  intros L N Q. inversion L; subst; [|congruence]. cbn [app]. rewrite app_assoc.
  apply (life_end st (r ++ hs) N), quiet_app; assumption.
Qed.

(* the logs of an ended execution cannot be extended: the history would end with its terminal event and also go on
   after it with h', which nothing_after_terminal tells apart *)
Lemma life_ended o ns h o' ns' h' :
  life o ns h -> ended ns = true -> life o' (ns ++ ns') (h ++ h') -> o' = o /\ ns' = [] /\ h' = [].
Proof.
  intros [|r Q|st r N Q] E L'; try discriminate E. inversion L' as [| |st' r' N' Q' E1 E2 E3].
  (* inversion has identified the record and the notifications; the history is left *)
  split; [reflexivity|]. split; [reflexivity|].
  apply (f_equal nothing_after_terminal) in E3. cbn [app nothing_after_terminal is_terminal_h] in E3.
  rewrite <- app_assoc, !nothing_after_quiet in E3 by assumption.
  (* E3 : nothing_after_terminal [term_of st] = nothing_after_terminal ([term_of st] ++ h'), false unless h' = [] *)
  destruct h'; [reflexivity|]. destruct st; [contradiction|discriminate E3..].
Qed.

Definition Lives (st no : list (xid * status)) (hi : list (xid * hkind)) : Prop :=
  forall x, life (get_status x st) (proj_x x no) (proj_x x hi).

(* one execution moves on; the others are not touched *)
Lemma lives_set st st' no hi x ns hs :
  Lives st no hi -> (forall y, x <> y -> get_status y st' = get_status y st) ->
  life (get_status x st') (proj_x x no ++ ns) (proj_x x hi ++ hs) ->
  Lives st' (no ++ map (pair x) ns) (hi ++ map (pair x) hs).
Proof.
  intros L Hst Lx y. rewrite !proj_x_log. destruct (Nat.eqb_spec x y) as [<-|N]; [exact Lx|].
  rewrite Hst, !app_nil_r by exact N. apply L.
Qed.

(* ids are handed out by a counter and never twice: the message ids, and the timer ids *)
Definition Fresh (l : list nat) (n : nat) : Prop := NoDup l /\ Forall (fun m => m < n) l.

(* lets `rewrite` with a Permutation act under Fresh, as the library's instances do under NoDup and Forall *)
Global Instance Fresh_perm : Proper (@Permutation nat ==> eq ==> Basics.impl) Fresh.
Proof. intros l l' Hp n ? <- [Nd F]. split; rewrite <- Hp; assumption. Qed.

Lemma fresh_snoc l n m : n <= m -> Fresh l n -> Fresh (l ++ [m]) (S m).
Proof.
  intros L [Nd F]. rewrite <- Permutation_cons_append. split; constructor; [|exact Nd|lia|eapply Forall_impl; [|exact F]; cbn; lia].
  intros H. rewrite Forall_forall in F. apply F in H. lia.
Qed.

Lemma fresh_app_r a l n : Fresh (a ++ l) n -> Fresh l n.
Proof. intros [Nd F]. split; [apply NoDup_app_inv in Nd; apply Nd|apply Forall_app in F; apply F]. Qed.

(* Every carrier knows the record of its execution: none while its start event is queued, RUNNING afterwards; an
   execution has at most one carrier and a RUNNING one has one.  hl: the held events, and the event whose handler is
   running, if any - it has left the queue, or `held`, and is not yet acknowledged or parked. *)
Record Carriers (hl q : list event) (st : list (xid * status)) : Prop := {
  c_queued : forall e, In e q -> get_status (e_x e) st = match e_state e with None => None | Some _ => Some Running end;
  c_held : forall e, In e hl -> get_status (e_x e) st = Some Running;
  c_one : NoDup (map e_x (q ++ hl));
  c_run : forall x, get_status x st = Some Running -> In x (map e_x (q ++ hl))
}.
Arguments c_queued {hl q st}.
Arguments c_held {hl q st}.
Arguments c_one {hl q st}.
Arguments c_run {hl q st}.

Lemma carriers_perm hl hl' q st : Permutation hl hl' -> Carriers hl q st -> Carriers hl' q st.
Proof.
  intros Hp [Cq Ch C1 Cr].
  constructor; [exact Cq|intros e He; apply Ch; rewrite Hp; exact He|rewrite <- Hp; exact C1|intros x Hx; rewrite <- Hp; apply Cr, Hx].
Qed.

(* a carrier sees no record or RUNNING: a terminal execution has none *)
Lemma carrier_running {hl q st} e s : Carriers hl q st -> In e (q ++ hl) -> get_status (e_x e) st = Some s -> s = Running.
Proof.
  intros C He S. apply in_app_or in He as [He|He]; [apply (c_queued C) in He; destruct (e_state e)|apply (c_held C) in He]; congruence.
Qed.

Lemma carrier_alone hl q st e l : Carriers hl q st -> Permutation (q ++ hl) (e :: l) -> forall e', In e' l -> e_x e <> e_x e'.
Proof.
  intros C Hp e' He' E. pose proof (c_one C) as N. rewrite Hp in N. inversion N as [|? ? Ne _].
  apply Ne. rewrite E. apply in_map, He'.
Qed.

(* e is taken off the queue; if it is a start event, start_execution has set the record *)
Lemma carriers_take hl q q' st st' e :
  Carriers hl q st -> Permutation q (e :: q') ->
  get_status (e_x e) st' = Some Running -> (forall y, e_x e <> y -> get_status y st' = get_status y st) ->
  Carriers (e :: hl) q' st'.
Proof.
  intros C Hp Se Hst. assert (Permutation (q ++ hl) (e :: q' ++ hl)) as Hp' by (rewrite Hp; reflexivity).
  pose proof (carrier_alone _ _ _ _ _ C Hp') as Hoth. rewrite (Permutation_middle q' hl e) in Hp'. destruct C as [Cq Ch C1 Cr].
  constructor.
  - intros e' He'. rewrite Hst by (apply Hoth, in_or_app; left; exact He'). apply Cq. rewrite Hp. right. exact He'.
  - intros e' [<-|He']; [exact Se|]. rewrite Hst by (apply Hoth, in_or_app; right; exact He'). apply Ch, He'.
  - rewrite <- Hp'. exact C1.
  - intros x Hx. rewrite <- Hp'. destruct (Nat.eq_dec (e_x e) x) as [<-|N]; [|apply Cr; rewrite <- Hst by exact N; exact Hx].
    apply in_map, in_or_app. left. rewrite Hp. left. reflexivity.
Qed.

(* the handler of e ends: it publishes the successor event ... *)
Lemma carriers_pub hl q st e n s b : Carriers (e :: hl) q st -> Carriers hl (q ++ [fresh_event n (e_x e) s b]) st.
Proof.
  intros [Cq Ch C1 Cr].
  assert (map e_x ((q ++ [fresh_event n (e_x e) s b]) ++ hl) = map e_x (q ++ e :: hl)) as Hc by (rewrite <- app_assoc, !map_app; reflexivity).
  constructor; [| |rewrite Hc; exact C1|rewrite Hc; exact Cr].
  - intros e' He'. apply in_app_iff in He' as [He'|[<-|[]]]; [apply Cq, He'|exact (Ch e (or_introl eq_refl))].
  - intros e' He'. apply Ch. right. exact He'.
Qed.

(* ... or ends the execution *)
Lemma carriers_end hl q st e s : Carriers (e :: hl) q st -> s <> Running -> Carriers hl q (set_status (e_x e) s st).
Proof.
  intros C Hs. pose proof (carrier_alone _ _ _ e (q ++ hl) C (Permutation_sym (Permutation_middle _ _ _))) as Hoth.
  destruct C as [Cq Ch C1 Cr]. rewrite map_app in C1, Cr. constructor; rewrite ?map_app.
  - intros e' He'. rewrite get_status_set_other by (apply Hoth, in_or_app; left; exact He'). apply Cq, He'.
  - intros e' He'. rewrite get_status_set_other by (apply Hoth, in_or_app; right; exact He'). apply Ch. right. exact He'.
  - exact (NoDup_remove_1 _ _ _ C1).
  - intros x Hx. destruct (Nat.eq_dec (e_x e) x) as [<-|N]; [rewrite get_status_set_same in Hx; congruence|].
    rewrite get_status_set_other in Hx by exact N. apply Cr, in_elt_inv in Hx as [Hx|Hx]; [congruence|exact Hx].
Qed.

(* The invariant is stated about the lists it reads - acknowledged ids, held-like and queued events, the id counter,
   records, notifications, history - not about a world: while a handler runs, its event is in no field of the
   world, and worlds that differ in other fields need no frame lemma. *)
Record Inv (ak : list mid) (hl q : list event) (n : nat) (st no : list (xid * status)) (hi : list (xid * hkind)) : Prop := {
  i_ids : Fresh (ak ++ map e_id (hl ++ q)) n;
  i_car : Carriers hl q st;
  i_life : Lives st no hi
}.
Arguments i_ids {ak hl q n st no hi}.
Arguments i_car {ak hl q n st no hi}.
Arguments i_life {ak hl q n st no hi}.

Lemma inv_nodup {ak hl q n st no hi} : Inv ak hl q n st no hi -> NoDup (map e_id hl) /\ NoDup (map e_id q).
Proof.
  intros [[Nd _] _ _]. apply NoDup_app_inv in Nd as (_ & Nd & _). rewrite map_app in Nd. apply NoDup_app_inv in Nd. tauto.
Qed.

Lemma inv_perm {ak hl q n st no hi} hl' : Permutation hl hl' -> Inv ak hl q n st no hi -> Inv ak hl' q n st no hi.
Proof. intros Hp [F C L]. constructor; [rewrite <- Hp; exact F|exact (carriers_perm _ _ _ _ Hp C)|exact L]. Qed.

(* a RUNNING execution may log quiet history events *)
Lemma inv_log {ak hl q n st no hi} e hs :
  Inv ak hl q n st no hi -> In e hl -> quiet hs -> Inv ak hl q n st no (hi ++ map (pair (e_x e)) hs).
Proof.
  intros [F C L] He Q. constructor; [exact F|exact C|]. rewrite <- (app_nil_r no).
  apply (lives_set st st no hi (e_x e) [] hs L); [reflexivity|]. rewrite app_nil_r.
  pose proof (L (e_x e)) as Le. rewrite (c_held C e He) in *. apply life_log; assumption.
Qed.

Lemma inv_pub {ak hl q n st no hi} e m s b hs hi' :
  Inv ak (e :: hl) q n st no hi -> n <= m -> quiet hs -> hi' = hi ++ map (pair (e_x e)) hs ->
  Inv (ak ++ [e_id e]) hl (q ++ [fresh_event m (e_x e) s b]) (S m) st no hi'.
Proof.
  intros I Hm Q ->. destruct (inv_log e hs I (or_introl eq_refl) Q) as [F C L].
  constructor; [|apply carriers_pub, C|exact L].
  rewrite app_assoc, map_app, app_assoc. apply (fresh_snoc _ _ _ Hm). rewrite <- app_assoc. exact F.
Qed.

Lemma inv_end {ak hl q n st no hi} e s hs hi' :
  Inv ak (e :: hl) q n st no hi -> s <> Running -> quiet hs -> hi' = hi ++ map (pair (e_x e)) (hs ++ [term_of s]) ->
  Inv (ak ++ [e_id e]) hl q n (set_status (e_x e) s st) (no ++ [(e_x e, s)]) hi'.
Proof.
  intros [F C L] Hs Q ->. constructor; [rewrite <- app_assoc; exact F|apply carriers_end; assumption|].
  apply (lives_set st _ no hi (e_x e) [s] _ L); [intros y N; apply get_status_set_other, N|].
  rewrite get_status_set_same. apply life_ends; [|exact Hs|exact Q]. rewrite <- (c_held C e (or_introl eq_refl)). apply L.
Qed.

(* Inv at a world, with hl standing in for its held events: `winv_of hl w` does not read `held w` *)
Definition winv_of (hl : list event) (w : world) : Prop :=
  Inv (acked w) hl (queue w) (next_id w) (statuses w) (notes w) (hist w).
Definition winv (w : world) : Prop := winv_of (hevents w) w.

Lemma winv_acked w : winv w -> NoDup (acked w) /\ forall m, In m (acked w) -> ~ In m (live_ids w).
Proof.
  intros [[N _] _ _]. apply NoDup_app_inv in N as (Na & _ & Nd). split; [exact Na|]. intros m Hm F. apply (Nd m Hm).
  unfold live_ids in F. rewrite map_app, in_app_iff. apply in_app_iff in F. tauto.
Qed.

Lemma winv_delivered w m e : winv w -> find_event m (queue w) = Some e -> winv_of (e :: hevents w) (delivered w m e).
Proof.
  intros [F C L] Hf. apply find_event_perm in Hf as Hp.
  assert (In e (queue w)) as Hin by (rewrite Hp; left; reflexivity). pose proof (c_queued C e Hin) as Se.
  rewrite Hp, <- Permutation_middle in F. unfold winv_of, delivered.
  destruct (e_state e) as [s|]; constructor; cbn [started with_queue queue next_id statuses notes hist acked]; try exact F.
  - apply (carriers_take _ _ _ _ _ _ C Hp); [exact Se|reflexivity].
  - exact L.
  - apply (carriers_take _ _ _ _ _ _ C Hp); [apply get_status_set_same|intros y N; apply get_status_set_other, N].
  - apply (lives_set _ _ _ _ (e_x e) [Running] [HExecutionStarted] L); [intros y N; apply get_status_set_other, N|].
    rewrite get_status_set_same. apply life_starts. rewrite <- Se. apply L.
Qed.

Lemma log_app {A} x (l : list (xid * A)) hs hs' : (l ++ map (pair x) hs) ++ map (pair x) hs' = l ++ map (pair x) (hs ++ hs').
Proof. rewrite map_app, app_assoc. reflexivity. Qed.

(* The handler of e ends, whatever the decision.  The hypothesis is about w while that handler runs: e in front of
   what `held w` holds without e - whether e came off the queue or is still in `held w`. *)
Lemma winv_finished w e s d n hs :
  winv_of (e :: map fst (remove_held (e_id e) (held w))) w -> quiet hs -> id_ok w d n = true -> winv (finished w e s d n hs).
Proof.
  intros I Q Hid. unfold id_ok in Hid. unfold winv, winv_of, hevents, finished.
  destruct d as [s'| | |]; cbn in Hid; try apply Nat.leb_le in Hid; cbn [queue held next_id statuses notes hist acked].
  - apply (inv_pub e n s' false (hs ++ [HStateExited s]) _ I Hid); [|exact (log_app _ _ hs [_])].
    apply quiet_app; [exact Q|reflexivity].
  - apply (inv_end e Succeeded (hs ++ [HStateExited s]) _ I); [discriminate| |rewrite <- (app_assoc hs); exact (log_app _ _ hs [_; _])].
    apply quiet_app; [exact Q|reflexivity].
  - apply (inv_end e Failed hs _ I); [discriminate|exact Q|exact (log_app _ _ hs [_])].
  - apply (inv_pub e n s true hs _ I Hid Q). reflexivity.
Qed.

Lemma winv_shape w w' effs : winv w -> shape w w' effs -> winv w'.
Proof.
  intros I [rq rp|e t n Hin Hn|m e s p Hf Hn|m e s d n Hf Hid|e p rp s d n ot hs Hin Hid Q].
  - exact I.
  - unfold winv, winv_of, hevents. cbn [queue held next_id statuses notes hist acked]. rewrite set_phase_fst.
    apply (inv_log e [HTaskScheduled] I); [exact (in_hevents w e _ Hin)|reflexivity].
  - pose proof (winv_delivered w m e I Hf) as I0.
    unfold winv, winv_of, hevents, with_held. cbn [queue held next_id statuses notes hist acked]. rewrite map_app.
    apply (inv_perm _ (Permutation_cons_append _ e)), (inv_log e (entered e s) I0); [left; reflexivity|apply quiet_entered].
  - pose proof (winv_delivered w m e I Hf) as I0. destruct (delivered_fields w m e) as (Eh & _).
    apply winv_finished; [|apply quiet_entered|rewrite id_ok_delivered; exact Hid].
    (* e was queued, not held: removing it from `held` removes nothing *)
    rewrite Eh, remove_held_absent; [exact I0|]. destruct (inv_nodup I0) as (Nd & _). inversion Nd as [|? ? Ne _]. exact Ne.
  - apply (winv_finished (with_replies w rp)); [|exact Q|exact Hid]. refine (inv_perm _ _ I).
    apply (Permutation_map fst (l':=(e, p) :: _)), remove_held_perm; [apply (inv_nodup I)|exact Hin].
Qed.

Theorem winv_step kind s0 w i w' effs : winv w -> step kind s0 w i = Some (w', effs) -> winv w'.
Proof. intros I H. eapply winv_shape; [exact I|]. eapply step_shape. exact H. Qed.

(* timers are unique: a second, independent invariant *)
Definition TInv (w : world) : Prop := Fresh (tids w) (next_tid w).

(* set_phase puts back, with its new phase, what remove_held removes *)
Lemma set_phase_perm m p h : In m (held_ids h) -> exists e, Permutation (set_phase m p h) (remove_held m h ++ [(e, p)]).
Proof.
  induction h as [|[a q] h IH]; cbn [held_ids map fst set_phase remove_held In]; [intros []|]. destruct (Nat.eqb_spec (e_id a) m) as [E|E].
  - intros _. exists a. apply Permutation_cons_append.
  - intros [H|H]; [contradiction|]. destruct (IH H) as (e & Hp). exists e. rewrite Hp. reflexivity.
Qed.

Lemma tinv_finished w e s d n hs : TInv w -> TInv (finished w e s d n hs).
Proof.
  intros T. destruct (remove_held_sub (e_id e) (held w)) as (l & Hp). unfold TInv, tids in *.
  rewrite Hp, map_app in T. apply fresh_app_r in T. destruct d; exact T.
Qed.

Lemma tinv_shape w w' effs : TInv w -> shape w w' effs -> TInv w'.
Proof.
  intros T [rq rp|e t n Hin Hn|m e s p Hf Hn|m e s d n Hf Hid|e p rp s d n ot hs Hin Hid Q].
  - exact T.
  - destruct (set_phase_perm (e_id e) (PPending n) (held w)) as (e' & Hp); [apply in_map, (in_hevents w e _ Hin)|].
    destruct (remove_held_sub (e_id e) (held w)) as (l & Hs). unfold TInv, tids in *. cbn [held next_tid].
    rewrite Hp, map_app. apply (fresh_snoc _ _ _ Hn). rewrite Hs, map_app in T. exact (fresh_app_r _ _ _ T).
  - unfold TInv, tids in *. cbn [with_held held next_tid]. rewrite map_app. exact (fresh_snoc _ _ _ Hn T).
  - apply tinv_finished. destruct (delivered_fields w m e) as (Eh & _ & Et). unfold TInv, tids. rewrite Eh, Et. exact T.
  - apply (tinv_finished (with_replies w rp)). exact T.
Qed.

Theorem tinv_step kind s0 w i w' effs : TInv w -> step kind s0 w i = Some (w', effs) -> TInv w'.
Proof. intros T H. eapply tinv_shape; [exact T|]. eapply step_shape. exact H. Qed.

Lemma find_by_timer_unique h e p :
  NoDup (map (fun p => timer_of (snd p)) h) -> In (e, p) h -> find_by_timer (timer_of p) h = Some (e, p).
Proof.
  induction h as [|[a q] h IH]; cbn [map snd find_by_timer In]; intros Hnd Hin; [contradiction|]. inversion Hnd as [|? ? Ha Hh]; subst.
  destruct Hin as [[= -> ->]|Hin]; [rewrite Nat.eqb_refl; reflexivity|].
  destruct (Nat.eqb_spec (timer_of q) (timer_of p)) as [E|E]; [|apply IH; assumption].
  exfalso. apply Ha. rewrite E. apply (in_map (fun p0 => timer_of (snd p0)) h (e, p)). exact Hin.
Qed.

Fixpoint run (kind : sname -> skind) (s0 : sname) (w : world) (l : list input) : option (world * list effect) :=
  match l with
  | [] => Some (w, [])
  | i :: r =>
      match step kind s0 w i with
      | None => None
      | Some (w1, e1) => match run kind s0 w1 r with None => None | Some (w2, e2) => Some (w2, e1 ++ e2) end
      end
  end.

Definition starts_ok (starts : list event) (first_id : nat) : Prop :=
  NoDup (map e_id starts) /\ NoDup (map e_x starts) /\ forall e, In e starts -> e_state e = None /\ e_id e < first_id.

Definition reachable kind s0 starts w effs : Prop :=
  exists fi ft l, starts_ok starts fi /\ run kind s0 (empty_world starts fi ft) l = Some (w, effs).

Lemma run_ind kind s0 (P : world -> Prop) :
  (forall w i w' effs, P w -> step kind s0 w i = Some (w', effs) -> P w') ->
  forall l w w' effs, P w -> run kind s0 w l = Some (w', effs) -> P w'.
Proof.
  intros Hstep. induction l as [|i l IH]; cbn [run]; intros w w' effs Pw H; [injection H as <- _; exact Pw|].
  destruct (step kind s0 w i) as [[w1 e1]|] eqn:Hs; [|discriminate].
  destruct (run kind s0 w1 l) as [[w2 e2]|] eqn:Hr; [|discriminate]. injection H as <- _.
  exact (IH _ _ _ (Hstep _ _ _ _ Pw Hs) Hr).
Qed.

Lemma run_sync kind s0 l : forall w w' effs, run kind s0 w l = Some (w', effs) -> synced w w' effs.
Proof.
  induction l as [|i l IH]; cbn [run]; intros w w' effs H; [injection H as <- <-; apply synced_nil; reflexivity|].
  destruct (step kind s0 w i) as [[w1 e1]|] eqn:Hs; [|discriminate].
  destruct (run kind s0 w1 l) as [[w2 e2]|] eqn:Hr; [|discriminate]. injection H as <- <-.
  exact (synced_trans _ _ _ _ _ (step_sync _ _ _ _ _ _ Hs) (IH _ _ _ Hr)).
Qed.

Lemma run_snoc kind s0 i l : forall w w1 e1 w2 e2,
  run kind s0 w l = Some (w1, e1) -> step kind s0 w1 i = Some (w2, e2) -> run kind s0 w (l ++ [i]) = Some (w2, e1 ++ e2).
Proof.
  induction l as [|j l IH]; cbn [run app]; intros w w1 e1 w2 e2 Hr Hs.
  - injection Hr as <- <-. rewrite Hs, app_nil_r. reflexivity.
  - destruct (step kind s0 w j) as [[wa ea]|]; [|discriminate]. destruct (run kind s0 wa l) as [[wb eb]|] eqn:Hb; [|discriminate].
    injection Hr as <- <-. rewrite (IH _ _ _ _ _ Hb Hs), app_assoc. reflexivity.
Qed.

Lemma reachable_step kind s0 starts w effs i w' effs' :
  reachable kind s0 starts w effs -> step kind s0 w i = Some (w', effs') -> reachable kind s0 starts w' (effs ++ effs').
Proof.
  intros (fi & ft & l & Hs & Hr) H. exists fi, ft, (l ++ [i]). split; [exact Hs|]. exact (run_snoc _ _ _ _ _ _ _ _ _ Hr H).
Qed.

Lemma winv_init starts fi ft : starts_ok starts fi -> winv (empty_world starts fi ft).
Proof.
  intros (H1 & H2 & H3). constructor; cbn [empty_world hevents held map acked queue next_id statuses notes hist app].
  - split; [exact H1|]. apply Forall_forall. intros m Hm. apply in_map_iff in Hm as (e & <- & He). apply H3, He.
  - constructor; [|intros e []|rewrite app_nil_r; exact H2|discriminate].
    intros e He. rewrite (proj1 (H3 e He)). reflexivity.
  - intros x. apply life_none.
Qed.

Lemma winv_run kind s0 starts w effs : reachable kind s0 starts w effs -> winv w.
Proof. intros (fi & ft & l & Hs & Hr). exact (run_ind _ _ winv (winv_step kind s0) _ _ _ _ (winv_init _ _ _ Hs) Hr). Qed.

Lemma tinv_init starts fi ft : TInv (empty_world starts fi ft).
Proof. split; constructor. Qed.

Lemma tinv_run kind s0 starts w effs : reachable kind s0 starts w effs -> TInv w.
Proof. intros (fi & ft & l & _ & Hr). exact (run_ind _ _ TInv (tinv_step kind s0) _ _ _ _ (tinv_init _ _ _) Hr). Qed.

(* the logs of a reachable world are those of the effects issued on the way *)
Lemma reachable_logs kind s0 starts w effs : reachable kind s0 starts w effs ->
  notes w = enotes effs /\ hist w = ehist effs /\ acked w = acks_of effs.
Proof. intros (fi & ft & l & _ & Hr). exact (run_sync _ _ _ _ _ _ Hr). Qed.

Lemma notes_of_proj x l : notes_of x l = proj_x x (enotes l).
Proof.
  unfold proj_x. induction l as [|[] l IH]; cbn; try exact IH; [reflexivity|].
  rewrite (Nat.eqb_sym x0 x). destruct (Nat.eqb x x0); cbn; rewrite IH; reflexivity.
Qed.
Lemma hist_of_proj x l : hist_of x l = proj_x x (ehist l).
Proof.
  unfold proj_x. induction l as [|[] l IH]; cbn; try exact IH; [reflexivity|].
  rewrite (Nat.eqb_sym x0 x). destruct (Nat.eqb x x0); cbn; rewrite IH; reflexivity.
Qed.

Lemma notes_of_app x a b : notes_of x (a ++ b) = notes_of x a ++ notes_of x b.
Proof. rewrite !notes_of_proj, enotes_app. apply proj_x_app. Qed.
Lemma hist_of_app x a b : hist_of x (a ++ b) = hist_of x a ++ hist_of x b.
Proof. rewrite !hist_of_proj, ehist_app. apply proj_x_app. Qed.

(* What C02, C09 and C11 say about one execution, in one statement: its record, its notifications and its history
   are in step. *)
Theorem lifecycle kind s0 starts w effs x : reachable kind s0 starts w effs ->
  life (get_status x (statuses w)) (notes_of x effs) (hist_of x effs).
Proof.
  intros R. destruct (reachable_logs _ _ _ _ _ R) as (N & H & _). rewrite notes_of_proj, hist_of_proj, <- N, <- H.
  apply (winv_run _ _ _ _ _ R).
Qed.

Lemma winv_tokens w x : winv w ->
  match get_status x (statuses w) with
  | Some Running => tokens w x = 1
  | Some _ => tokens w x = 0
  | None => tokens w x <= 1
  end.
Proof.
  intros [_ C _]. unfold tokens. rewrite <- cntx_app. pose proof (cntx_nodup x _ (c_one C)) as H1.
  destruct (get_status x (statuses w)) as [[| |]|] eqn:S; [| | |exact H1].
  (* SUCCEEDED, FAILED: x is not among the executions of the carriers *)
  2,3: rewrite cntx_count; apply count_occ_not_In; intros (e & <- & He)%in_map_iff; discriminate (carrier_running e _ C He S).
  (* RUNNING: it is, and at most once *)
  apply (c_run C), in_map_iff in S as (e & Hx & He). pose proof (cntx_pos x _ e He Hx). lia.
Qed.

(* a queued event can be delivered, a held one has a timer that can fire: with a decision that its state kind or
   phase admits and that publishes nothing (End, else Failed), so that the id only has to be fresh for a timer *)
Lemma deliver_enabled kind s0 w m e : find_event m (queue w) = Some e ->
  exists d n w' effs, step kind s0 w (IDeliver m d n) = Some (w', effs).
Proof.
  intros Hf. exists (match kind (state_of s0 e) with KFail => DFailed | _ => DEnd end), (next_tid w).
  cbn [step]. rewrite Hf. unfold state_of, enter.
  destruct (e_state e) as [s|]; cbn [with_queue started next_tid]; destruct (kind _); cbn; rewrite ?Nat.leb_refl; eauto.
Qed.

Lemma fire_enabled kind s0 w t e p : find_by_timer t (held w) = Some (e, p) ->
  exists d n w' effs, step kind s0 w (IFire t d n) = Some (w', effs).
Proof.
  intros Hf. exists (match p with PPending _ => DFailed | _ => DEnd end), (next_tid w).
  cbn [step]. rewrite Hf. destruct p; cbn; rewrite ?Nat.leb_refl; eauto.
Qed.

(* the step is a handler invocation for an event of execution x *)
Definition moves (w : world) (i : input) (x : xid) : Prop :=
  match i with
  | IDeliver m _ _ => option_map e_x (find_event m (queue w)) = Some x
  | IFire t _ _ => option_map (fun ep : event * phase => e_x (fst ep)) (find_by_timer t (held w)) = Some x
  | _ => False
  end.

(* the process dies: every delivered, unacknowledged event goes back to the head of the queue (the broker
   redelivers it); timers and the bookkeeping of pending requests are gone; what is at the workers, on the
   reply queue and in the stores stays.  `crash w` need not satisfy `winv`: a start event that was parked on a timer
   comes back as a start event (e_state = None) although its record says RUNNING, and its second delivery starts the
   execution again.  The theorems of C04 are about the crash step alone. *)
Definition crash (w : world) : world :=
  {| queue := hevents w ++ queue w; held := []; requests := requests w; replies := replies w; next_id := next_id w; next_tid := next_tid w;
     statuses := statuses w; notes := notes w; hist := hist w; acked := acked w |}.

Example reachable_example :
  exists w effs, reachable (kind_fun [KTask; KWait; KSucceed]) 0
                   [{| e_id := 0; e_x := 0; e_state := None; e_retry := false |}; {| e_id := 1; e_x := 1; e_state := None; e_retry := false |}] w effs /\
                 get_status 0 (statuses w) = Some Succeeded /\ get_status 1 (statuses w) = Some Failed /\ queue w = [] /\ held w = [].
Proof.
  eexists. eexists. split.
  - exists 2, 0,
      [IDeliver 0 DEnd 0; IDeliver 1 DEnd 1; IFire 0 DEnd 2; IFire 1 DEnd 3; IWorker 0 true; IWorker 1 false;
       IReply 0 (DNext 1) 2; IReply 1 DFailed 0; IDeliver 2 DEnd 4; IFire 4 (DNext 2) 3; IDeliver 3 DEnd 0].
    split; [|vm_compute; reflexivity].
    split; [|split].
    + repeat constructor; cbn; intuition discriminate.
    + repeat constructor; cbn; intuition discriminate.
    + intros ev [<-|[<-|[]]]; cbn; auto.
  - vm_compute. repeat split; reflexivity.
Qed.
