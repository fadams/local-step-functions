(* What a Map state with MaxConcurrency has launched and has in flight.  In every reachable state of the launch / finish
   system the iterations in flight are distinct members of the latest block, the iterations launched so far are exactly those below the
   end of that block, and every slot from there on is still empty: those iterations do not exist yet.  (This is why winding up a Map
   state when its execution ends must only wait for the slots up to the end of the latest block - the repair a77320e of state_engine.py.) *)
From Coq Require Import List Lia.
Import ListNotations.
From LSF Require Import Join JoinProofs.

Record JInv {A} (mc n : nat) (s : jst A) : Prop := {
  j_length : length (res s) = n;
  j_start : jstart s <= n;
  j_nodup : NoDup (inflight s);
  j_block : forall j, In j (inflight s) -> jstart s <= j < batch_end mc n (jstart s);
  j_launched : launched s = seq 0 (batch_end mc n (jstart s));
  j_beyond : forall j, batch_end mc n (jstart s) <= j -> j < n -> nth_error (res s) j = Some None }.

Lemma jinv_init {A} mc n : JInv mc n (@jinit A mc n).
Proof.
  split; cbn.
  - apply repeat_length.
  - lia.
  - apply seq_NoDup.
  - intros j Hj. apply in_seq in Hj. lia.
  - reflexivity.
  - intros j _ Hj. apply nth_error_repeat. exact Hj.
Qed.

Lemma jinv_step {A} mc n (s s' : jst A) i v a : JInv mc n s -> jstep mc s i v = Some (s', a) -> JInv mc n s'.
Proof.
  intros [Len St Nd Bl La Be] H. apply jstep_inv in H as (Hi & Hr & H). rewrite Len in H.
  apply Bl in Hi. pose proof (batch_end_bounds mc n _ St) as (B & _).
  (* in both cases, field by field, with the fields of s' rewritten to what the step makes of those of s *)
  destruct H as [(Hs & Hf & Hl)|(M & Hs & Hf & Hl)].
  - (* the block goes on without i *)
    split; rewrite ?Hl, ?Hf, ?Hs, ?Hr, ?set_nth_length; try assumption.
    + (* j_nodup *) apply remove_nat_nodup, Nd.
    + (* j_block *) intros j Hj. apply Bl, (in_remove_nat i), Hj.
    + (* j_beyond *) intros j Hj Hn. rewrite nth_set_other by lia. apply Be; assumption.
  - (* the next block is launched; it starts where the current one ends *)
    pose proof (batch_end_bounds mc n _ (proj2 B)) as (B' & _).
    split; rewrite ?Hl, ?Hf, ?Hs, ?Hr, ?set_nth_length; try assumption.
    + (* j_start *) lia.
    + (* j_nodup *) apply seq_NoDup.
    + (* j_block *) intros j Hj. apply in_seq in Hj. lia.
    + (* j_launched *) rewrite La, <- seq_app. f_equal. lia.
    + (* j_beyond *) intros j Hj Hn. rewrite nth_set_other by lia. apply Be; lia.
Qed.

Lemma jinv_run {A} mc n (l : list (nat * A)) s : jrun mc (jinit mc n) l = Some s -> JInv mc n s.
Proof. apply (jrun_ind mc (JInv mc n) (jinv_step mc n)), jinv_init. Qed.

Lemma inflight_bounded {A} mc n (s : jst A) : mc <> 0 -> JInv mc n s -> length (inflight s) <= mc.
Proof.
  intros M [_ St Nd Bl _ _].
  assert (incl (inflight s) (seq (jstart s) (batch_end mc n (jstart s) - jstart s))) as L.
  { intros j Hj. apply Bl in Hj. apply in_seq. lia. }
  apply (NoDup_incl_length Nd) in L. rewrite seq_length in L. pose proof (batch_end_bounds mc n _ St). lia.
Qed.
