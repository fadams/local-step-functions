(* Model/Routing.v: the affinity invariant `AInv` - every message on the fabric that belongs to a started execution
   is bound to the instance that took its start event - for every schedule (`ainv_step`, `ainv_run`). *)
From Coq Require Import List Arith Bool String.
Import ListNotations.
From LSF Require Import PyStr Json Routing.
Local Open Scope list_scope.

Lemma rmsg_eqb_eq a b : rmsg_eqb a b = true <-> a = b.
Proof.
  destruct a as [x [i|]|x i|x i], b as [y [j|]|y j|y j]; cbn; rewrite ?andb_true_iff, ?Nat.eqb_eq; split; try discriminate;
    intros H; inversion H; subst; auto.
Qed.

Lemma in_skip {A} (a m : A) l1 l2 : In a (l1 ++ l2) -> In a (l1 ++ m :: l2).
Proof. rewrite !in_app_iff. cbn. tauto. Qed.

(* a step takes one copy of a message that is there *)
Lemma take_split m l : existsb (rmsg_eqb m) l = true -> exists l1 l2, l = l1 ++ m :: l2 /\ remove_msg m l = l1 ++ l2.
Proof.
  induction l as [|a l IH]; cbn; [discriminate|]. destruct (rmsg_eqb a m) eqn:E.
  - apply rmsg_eqb_eq in E as ->. exists [], l. split; reflexivity.
  - intros H. apply orb_true_iff in H as [H|H]; [apply rmsg_eqb_eq in H as ->; rewrite (proj2 (rmsg_eqb_eq a a) eq_refl) in E; discriminate|].
    destruct (IH H) as (l1 & l2 & -> & ->). exists (a :: l1), l2. split; reflexivity.
Qed.

(* the instance a message is addressed to, if it is not a start event on the shared queue *)
Definition msg_inst (m : rmsg) : option (exec * inst) :=
  match m with MEvent x (Some i) => Some (x, i) | MEvent _ None => None | MRequest x i => Some (x, i) | MReply x i => Some (x, i) end.
Definition pending_starts (l : list rmsg) : list exec := flat_map (fun m => match m with MEvent x None => [x] | _ => [] end) l.

Lemma pending_starts_app a b : pending_starts (a ++ b) = pending_starts a ++ pending_starts b.
Proof. apply flat_map_app. Qed.

Lemma in_pending_starts x l : In x (pending_starts l) <-> In (MEvent x None) l.
Proof.
  unfold pending_starts. rewrite in_flat_map. split.
  - intros (m & Hm & Hx). destruct m as [y [j|]|y j|y j]; cbn in Hx; try contradiction. destruct Hx as [<-|[]]. exact Hm.
  - intros H. exists (MEvent x None). split; [exact H|left; reflexivity].
Qed.

Lemma pending_starts_bound l : (forall m, In m l -> msg_inst m <> None) -> pending_starts l = [].
Proof.
  intros H. destruct (pending_starts l) as [|x r] eqn:E; [reflexivity|]. exfalso. apply (H (MEvent x None)); [|reflexivity].
  apply in_pending_starts. rewrite E. left. reflexivity.
Qed.

Lemma pending_starts_remove m l1 l2 : NoDup (pending_starts (l1 ++ m :: l2)) -> NoDup (pending_starts (l1 ++ l2)).
Proof.
  rewrite !pending_starts_app. destruct m as [x [i|]|x i|x i]; cbn; intros H; try exact H. exact (NoDup_remove_1 _ _ _ H).
Qed.

(* with at most one start event per execution on the fabric, none is left of the one taken *)
Lemma start_taken x l1 l2 : NoDup (pending_starts (l1 ++ MEvent x None :: l2)) -> ~ In (MEvent x None) (l1 ++ l2).
Proof.
  rewrite <- in_pending_starts, !pending_starts_app. exact (NoDup_remove_2 _ _ _).
Qed.

(* what is bound to an instance - a message on the fabric, a logged handling - is bound to the owner of its execution;
   an execution whose start event is still on the fabric has no owner yet, and has one start event *)
Record AInv (w : rworld) : Prop := {
  a_bound : forall m x j, In m (fabric w) -> msg_inst m = Some (x, j) -> owner_of x (owner w) = Some j;
  a_log : forall x j, In (x, j) (log w) -> owner_of x (owner w) = Some j;
  a_start : forall x, In (MEvent x None) (fabric w) -> owner_of x (owner w) = None;
  a_nodup : NoDup (pending_starts (fabric w))
}.

Lemma ainv_init starts : NoDup starts -> AInv (rinit starts).
Proof.
  intros H. constructor; cbn.
  - intros m x j Hm E. apply in_map_iff in Hm as (y & <- & _). discriminate.
  - intros x j [].
  - reflexivity.
  - assert (forall l, pending_starts (map (fun x => MEvent x None) l) = l) as -> by (intros l; induction l as [|s l IH]; cbn; [reflexivity|f_equal; exact IH]).
    exact H.
Qed.

(* instance i takes m for execution x: m is bound to (x, i) already, or it is the start event of x and i becomes the
   owner of x; what the handler hands over (new) is bound to (x, i) *)
Lemma ainv_take w m i x own' new lg :
  AInv w -> existsb (rmsg_eqb m) (fabric w) = true ->
  msg_inst m = Some (x, i) /\ own' = owner w \/ m = MEvent x None /\ own' = (x, i) :: owner w ->
  (forall m', In m' new -> msg_inst m' = Some (x, i)) -> incl lg (log w ++ [(x, i)]) ->
  AInv {| fabric := remove_msg m (fabric w) ++ new; owner := own'; log := lg |}.
Proof.
  intros [B L S N] E Hm Hnew Hlg. apply take_split in E as (l1 & l2 & F & ->). rewrite F in *.
  (* all that the four fields need of the owners: afterwards x is owned by i, who had an owner keeps it, and the start
     events left are of executions without one *)
  assert (Own : owner_of x own' = Some i /\ (forall y j, owner_of y (owner w) = Some j -> owner_of y own' = Some j) /\
                forall y, In (MEvent y None) (l1 ++ l2) -> owner_of y own' = None).
  { destruct Hm as [[Em ->]|[-> ->]].
    - split; [apply (B m); [apply in_elt|exact Em]|]. split; [intros y j Oy; exact Oy|].
      intros y Hin. exact (S y (in_skip _ _ _ _ Hin)).
    - (* x had no owner, so no other owner changes; and no second start event of x is left *)
      pose proof (S x (in_elt _ _ _)) as Ox. cbn [owner_of]. rewrite Nat.eqb_refl. split; [reflexivity|]. split.
      + intros y j Oy. destruct (Nat.eqb_spec x y) as [->|]; [congruence|exact Oy].
      + intros y Hin. destruct (Nat.eqb_spec x y) as [->|]; [destruct (start_taken _ _ _ N Hin)|exact (S y (in_skip _ _ _ _ Hin))]. }
  destruct Own as (Ox & Keep & Starts). constructor; cbn.
  - intros m' y j Hin E. apply in_app_iff in Hin as [Hin|Hin]; [exact (Keep y j (B m' y j (in_skip _ _ _ _ Hin) E))|].
    rewrite (Hnew _ Hin) in E. inversion E; subst. exact Ox.
  - intros y j Hin. apply Hlg, in_app_iff in Hin as [Hin|[Hin|[]]]; [exact (Keep y j (L y j Hin))|inversion Hin; subst; exact Ox].
  - intros y Hin. apply in_app_iff in Hin as [Hin|Hin]; [exact (Starts y Hin)|]. apply Hnew in Hin. discriminate.
  - rewrite pending_starts_app, (pending_starts_bound new), app_nil_r; [exact (pending_starts_remove _ _ _ N)|].
    intros m' Hin. rewrite (Hnew _ Hin). discriminate.
Qed.

Lemma emits_bound i x outs m : In m (map (emit i x) outs) -> msg_inst m = Some (x, i).
Proof. intros H. apply in_map_iff in H as ([] & <- & _); reflexivity. Qed.

Theorem ainv_step w s w' : AInv w -> rstep w s = Some w' -> AInv w'.
Proof.
  intros I H. destruct s as [i x outs|i x outs|x i|i x outs]; cbn in H; destruct (existsb _ _) eqn:E; try discriminate; inversion H; subst; clear H.
  - apply (ainv_take w _ i x); [exact I|exact E|right; split; reflexivity|apply emits_bound|apply incl_refl].
  - apply (ainv_take w _ i x); [exact I|exact E|left; split; reflexivity|apply emits_bound|apply incl_refl].
  - (* the worker's reply goes to the reply queue named in the request *)
    apply (ainv_take w _ i x); [exact I|exact E|left; split; reflexivity| |apply incl_appl, incl_refl].
    intros m [<-|[]]. reflexivity.
  - apply (ainv_take w _ i x); [exact I|exact E|left; split; reflexivity|apply emits_bound|apply incl_refl].
Qed.

Lemma ainv_run l : forall w0 w, AInv w0 -> rrun w0 l = Some w -> AInv w.
Proof.
  induction l as [|s l IH]; intros w0 w I0 H; cbn in H; [inversion H; subst; exact I0|].
  destruct (rstep w0 s) as [w1|] eqn:E; [|discriminate]. exact (IH w1 w (ainv_step _ _ _ I0 E) H).
Qed.

(* C19: every event and reply of an execution is handled by the one instance that took its start event *)
Theorem affinity starts l w : NoDup starts -> rrun (rinit starts) l = Some w ->
  forall x i j, In (x, i) (log w) -> In (x, j) (log w) -> i = j.
Proof.
  intros Nd H x i j Hi Hj. pose proof (ainv_run l _ _ (ainv_init starts Nd) H) as I.
  pose proof (a_log w I x i Hi). pose proof (a_log w I x j Hj). congruence.
Qed.

(* the options in the queue addresses that event_dispatcher.py builds: `shared_queue` (no link options) and `instance_queue`
   (exclusive consumer), each with the x-declare arguments when queue_type is "quorum" *)
Definition engine_options (quorum exclusive_consumer : bool) : json :=
  JObj ([("node", JObj ([("durable", JBool true)] ++ (if quorum then [("x-declare", JObj [("arguments", JObj [("x-queue-type", JStr "quorum")])])] else [])))] ++
        (if exclusive_consumer then [("link", JObj [("x-subscribe", JObj [("exclusive", JBool true)])])] else [])).
