(* Model/FanoutFail.v: once decided, a step only drops its event (`fstep_decided`), and along any run the decisions
   announced and the state's being decided add up (`frun_decisions`): that is "decided at most once". *)
From Coq Require Import List Lia.
Import ListNotations.
From LSF Require Import FanoutFail.

Lemma frun_cons s ev evs :
  frun s (ev :: evs) = (fst (frun (fst (fstep s ev)) evs), snd (fstep s ev) ++ snd (frun (fst (fstep s ev)) evs)).
Proof. cbn [frun]. destruct (fstep s ev) as [s1 e1]. cbn [fst snd]. destruct (frun s1 evs). reflexivity. Qed.

Lemma fstep_decided s ev o : outcome s = Some o ->
  outcome (fst (fstep s ev)) = Some o /\ snd (fstep s ev) = [Drop (ev_branch ev)].
Proof. intros H. unfold fstep. rewrite H. cbn. split; reflexivity. Qed.

(* Every step announces as many decisions as it makes: one when it takes the state from live to decided, none otherwise.
   Summed over a run this is "decided at most once". *)
Definition decided (s : fst_) : nat := match outcome s with Some _ => 1 | None => 0 end.

Lemma cancels_no_decision l : filter is_decision (map Cancel l) = [].
Proof. induction l; cbn; auto. Qed.

Lemma fstep_decisions s ev : length (filter is_decision (snd (fstep s ev))) + decided s = decided (fst (fstep s ev)).
Proof.
  unfold fstep, decided. destruct (outcome s); [reflexivity|]. destruct ev as [i|i e]; [destruct (forallb _ _); reflexivity|].
  cbn [fst snd outcome]. rewrite filter_app, cancels_no_decision. reflexivity.
Qed.

Lemma frun_decisions evs : forall s, length (filter is_decision (snd (frun s evs))) + decided s = decided (fst (frun s evs)).
Proof.
  induction evs as [|ev r IH]; intros s; [reflexivity|]. rewrite frun_cons. cbn [fst snd].
  rewrite filter_app, app_length, <- IH, <- fstep_decisions. lia.
Qed.

Lemma running_from_spec l : forall k j, In j (running_from k l) <-> exists m, j = k + m /\ nth_error l m = Some BRun.
Proof.
  induction l as [|b l IH]; intros k j; cbn [running_from].
  - split; [intros []|intros ([|m] & _ & H); discriminate].
  - assert ((exists m, j = k + m /\ nth_error (b :: l) m = Some BRun) <-> (k = j /\ b = BRun) \/ In j (running_from (S k) l)) as ->.
    { rewrite IH. split.
      - intros ([|m] & -> & H); cbn in H; [left; split; [lia|congruence]|right; exists m; split; [lia|exact H]].
      - intros [(<- & ->)|(m & -> & H)]; [exists 0|exists (S m)]; split; auto; lia. }
    destruct b; cbn [In]; intuition congruence.
Qed.
