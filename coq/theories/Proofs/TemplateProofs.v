(* Payload templates and intrinsic functions (C13).  [clean], failing only with one of the States
   errors, is closed under the bind and the conditional the evaluator is written with, so that the
   evaluator is clean by its text; clone's two loops are named, with the work on one element as a
   parameter, so that a theorem about clone is an induction on the template whose cases speak of
   one step.  The last part has the lemmas behind the relational specifications of StringSplit and
   ArrayPartition. *)
From LSF Require Import PyStr Json Dumps PathSpec Paths Template IntrinsicSpec.
Open Scope string_scope.

Definition dollar_key (k : string) : bool := match strip_dollar k with Some _ => true | None => false end.

(* nothing in the template is evaluated: no name ends in ".$" unless its value is an object or an
   array (clone keeps such a name and walks the value), and no string that is directly an element
   of an array ends in ".$" *)
Fixpoint no_dollar (t : json) : bool :=
  match t with
  | JArr l => forallb (fun x => match x with JStr s => negb (dollar_key s) | _ => no_dollar x end) l
  | JObj kv => (fix go (kv : list (string * json)) : bool :=
                  match kv with
                  | [] => true
                  | (k, v) :: r => (is_container v || negb (dollar_key k)) && no_dollar v && go r
                  end) kv
  | _ => true
  end.

Lemma no_dollar_members kv : no_dollar (JObj kv) = true ->
  Forall (fun p => (is_container (snd p) || negb (dollar_key (fst p))) && no_dollar (snd p) = true) kv.
Proof.
  induction kv as [|[k v] kv IH]; intros H; constructor; apply andb_true_iff in H as [H1 H2]; [exact H1|exact (IH H2)].
Qed.

(* failing, if at all, with one of the States errors: PyOther stands for any other exception of Python *)
Definition clean {A} (r : option (result A)) : Prop := r <> Some (Err PyOther).

Lemma clean_err {A} (r : option (result A)) : clean r -> forall e, r = Some (Err e) -> e <> PyOther.
Proof. intros C e H ->. exact (C H). Qed.

Lemma clean_bind {A B} (r : option (result A)) (k : A -> option (result B)) :
  clean r -> (forall x, clean (k x)) ->
  clean (match r with Some (Ok x) => k x | Some (Err e) => Some (Err e) | None => None end).
Proof. intros Hr Hk. destruct r as [[x|e]|]; [apply Hk| |discriminate]. intros [= ->]. exact (Hr eq_refl). Qed.

Lemma clean_if {A} (c : bool) (a b : option (result A)) : clean a -> clean b -> clean (if c then a else b).
Proof. destruct c; auto. Qed.

(* clone's loops over the elements of an array and the members of an object, with the work on
   one element as a parameter: the theorems about clone are statements about [step].  The
   parameter stands outside the fix so that clone unfolds to these loops by conversion. *)
Definition items (step : json -> tres) : list json -> list json -> tres :=
  fix go l acc :=
    match l with
    | [] => tok (JArr acc)
    | x :: r => match step x with
                | Some (Ok y) => go r (acc ++ [y])%list
                | Some (Err e) => Some (Err e)
                | None => None
                end
    end.

Definition members (step : string -> json -> mres) : list (string * json) -> list (string * json) -> tres :=
  fix go kv acc :=
    match kv with
    | [] => tok (JObj acc)
    | (k, x) :: r => match step k x with
                     | Some (Ok (k', y)) => go r (obj_set acc k' y)
                     | Some (Err e) => Some (Err e)
                     | None => None
                     end
    end.

Definition item_step (fuel : nat) (input ctx x : json) : tres :=
  if is_container x then clone fuel input ctx x
  else match x with
       | JStr s => match strip_dollar s with
                   | Some s' => eval_value fuel input ctx (JStr s')
                   | None => tok x
                   end
       | _ => tok x
       end.

Definition member_step (fuel : nat) (input ctx : json) (k : string) (x : json) : mres :=
  if is_container x then with_key k (clone fuel input ctx x)
  else match strip_dollar k with
       | Some k' => with_key k' (eval_value fuel input ctx x)
       | None => Some (Ok (k, x))
       end.

Lemma clone_arr fuel input ctx l : clone fuel input ctx (JArr l) = items (item_step fuel input ctx) l [].
Proof. reflexivity. Qed.

Lemma clone_obj fuel input ctx kv : clone fuel input ctx (JObj kv) = members (member_step fuel input ctx) kv [].
Proof. reflexivity. Qed.

Lemma items_id step l : Forall (fun x => step x = tok x) l -> forall acc, items step l acc = tok (JArr (acc ++ l)).
Proof.
  induction 1 as [|x l Hx _ IH]; intros acc; cbn [items]; [rewrite app_nil_r; reflexivity|].
  rewrite Hx. cbn. rewrite IH, <- app_assoc. reflexivity.
Qed.

Lemma members_id step kv : Forall (fun p => step (fst p) (snd p) = Some (Ok p)) kv ->
  forall acc, keys_nodup (map fst (acc ++ kv)) = true -> members step kv acc = tok (JObj (acc ++ kv)).
Proof.
  induction 1 as [|[k v] kv Hp _ IH]; intros acc Hk; cbn [members]; [rewrite app_nil_r; reflexivity|].
  cbn [fst snd] in Hp. rewrite Hp, obj_set_fresh by (rewrite map_app in Hk; exact (keys_nodup_mid _ _ _ Hk)).
  rewrite IH, <- app_assoc by (rewrite <- app_assoc; exact Hk). reflexivity.
Qed.

Lemma items_clean step l : Forall (fun x => clean (step x)) l -> forall acc, clean (items step l acc).
Proof.
  induction 1 as [|x l Hx _ IH]; intros acc; cbn [items]; [discriminate|].
  apply clean_bind; [exact Hx|intros y; apply IH].
Qed.

Lemma members_clean step kv : Forall (fun p => clean (step (fst p) (snd p))) kv -> forall acc, clean (members step kv acc).
Proof.
  induction 1 as [|[k x] kv Hp _ IH]; intros acc; cbn [members]; [discriminate|].
  apply clean_bind; [exact Hp|intros [k' y]; apply IH].
Qed.

Lemma apply_jsonpath_clean i p : clean (apply_jsonpath_m i p).
Proof.
  unfold apply_jsonpath_m. destruct p as [p|]; [|discriminate].
  destruct (is_null i); [discriminate|]. destruct (String.eqb p "$"); [discriminate|].
  destruct (parse_path p) as [toks|]; [|discriminate]. destruct (truthy i); [|discriminate].
  destruct (select_tokens i toks); discriminate.
Qed.

Lemma apply_path_clean i c p : clean (apply_path_m i c p).
Proof.
  unfold apply_path_m. destruct p as [[|a p]|]; try discriminate.
  rewrite ascii_match_dollar. apply clean_if; [|discriminate].
  destruct p as [|b p]; [apply apply_jsonpath_clean|].
  rewrite ascii_match_dollar. apply clean_if; [|apply apply_jsonpath_clean].
  destruct (String.eqb _ _); [discriminate|apply apply_jsonpath_clean].
Qed.

(* by fix: after a backslash and after "{}" format_scan calls itself two characters on *)
Lemma format_scan_clean : forall t a, clean (format_scan t a).
Proof.
  fix IH 1. intros [|c r] a; cbn [format_scan]; [destruct a; discriminate|].
  destruct (ascii_eqb c bslash).
  { destruct r as [|b r']; [destruct a; discriminate|]. apply clean_bind; [apply IH|discriminate]. }
  destruct (ascii_eqb c "{").
  { destruct r as [|b r']; [discriminate|]. rewrite ascii_match_rbrace. apply clean_if; [|discriminate].
    destruct a as [|x a']; [discriminate|]. destruct (match x with JStr s => Some s | _ => dumps x end); [|discriminate].
    apply clean_bind; [apply IH|discriminate]. }
  destruct (ascii_eqb c "}"); [discriminate|]. apply clean_bind; [apply IH|discriminate].
Qed.

Lemma intrinsic_clean name args : clean (intrinsic name args).
Proof.
  unfold intrinsic. apply clean_if.
  { (* Format hands on what format_scan says *)
    destruct args as [|[| | | |t| |] rest]; try discriminate.
    apply (clean_bind (format_scan t rest)); [apply format_scan_clean|discriminate]. }
  (* every other function writes down tok, tfail or None, whatever it matches on.  By case and not
     destruct, which looks for its term in all that is still to come *)
  repeat (apply clean_if; [repeat match goal with |- clean (match ?x with _ => _ end) => case x; intros end; discriminate|]).
  discriminate.
Qed.

Lemma eval_arg_clean rec input ctx a : (forall t, clean (rec t)) -> clean (eval_arg rec input ctx a).
Proof.
  intros Hrec. unfold eval_arg.
  destruct (prefixb "'" a); [destruct (_ || _); discriminate|].
  destruct (prefixb "$" a); [apply apply_path_clean|].
  destruct (prefixb "States." a); [apply Hrec|].
  destruct (String.eqb a "null"); [discriminate|].
  destruct (String.eqb a "true"); [discriminate|].
  destruct (String.eqb a "false"); [discriminate|].
  destruct (py_int a); [discriminate|]. destruct (simple_decimal a); [discriminate|].
  destruct (numberish a); discriminate.
Qed.

Lemma eval_args_clean ev name : (forall t, clean (ev t)) -> forall toks acc, clean (eval_args ev name toks acc).
Proof.
  intros Hev. induction toks as [|a more IH]; intros acc; cbn [eval_args]; [apply intrinsic_clean|].
  apply clean_bind; [apply Hev|intros x; apply IH].
Qed.

Lemma eval_intrinsic_clean : forall fuel input ctx text, clean (eval_intrinsic fuel input ctx text).
Proof.
  induction fuel as [|f IH]; intros input ctx text; cbn [eval_intrinsic]; [discriminate|].
  destruct (negb _); [discriminate|].
  destruct (find_char "(" text) as [[fname rest]|]; [|discriminate]. cbv zeta.
  destruct (negb _); [discriminate|].
  destruct (last_index_of ")" rest 0 None) as [i|]; [|discriminate].
  destruct (split_args (str_take i rest)) as [toks|]; [|discriminate].
  apply eval_args_clean. intros t. apply eval_arg_clean. apply IH.
Qed.

Lemma eval_value_clean fuel input ctx v : clean (eval_value fuel input ctx v).
Proof.
  unfold eval_value. destruct v as [| | | |s| |]; try discriminate.
  destruct (String.eqb s "$"); [discriminate|].
  destruct (prefixb "$" s); [apply apply_path_clean|apply eval_intrinsic_clean].
Qed.

Lemma with_key_clean k r : clean r -> clean (with_key k r).
Proof. intros H. apply clean_bind; [exact H|discriminate]. Qed.

Theorem clone_clean fuel input ctx : forall t, is_container t = true -> clean (clone fuel input ctx t).
Proof.
  induction t as [| | | | |l IH|kv IH] using json_ind'; intros Hc; try discriminate.
  - rewrite clone_arr. apply items_clean. eapply Forall_impl; [|exact IH].
    intros x Hx. cbv beta in Hx. unfold item_step. destruct (is_container x); [exact (Hx eq_refl)|].
    destruct x as [| | | |s| |]; try discriminate. destruct (strip_dollar s); [apply eval_value_clean|discriminate].
  - rewrite clone_obj. apply members_clean. eapply Forall_impl; [|exact IH].
    intros [k x] Hx. cbn [fst snd] in *. unfold member_step. destruct (is_container x); [exact (with_key_clean _ _ (Hx eq_refl))|].
    destruct (strip_dollar k); [apply with_key_clean, eval_value_clean|discriminate].
Qed.

Lemma split_on_spec seps : forall d cur,
  exists_char (fun c => has_char c seps) cur = false ->
  forallb (fun p => match p with JStr x => negb (exists_char (fun c => has_char c seps) x) | _ => false end) (split_on seps d cur) = true /\
  rebuild (split_on seps d cur) (seps_in seps d) = Some (cur ++ d).
Proof.
  induction d as [|c d IH]; intros cur Hcur; cbn [split_on seps_in].
  - cbn [forallb rebuild]. rewrite Hcur, append_nil_r. split; reflexivity.
  - destruct (has_char c seps) eqn:Hc.
    + destruct (IH "" eq_refl) as [H1 H2]. cbn [forallb rebuild]. rewrite Hcur, H1, H2. cbn [append negb andb].
      destruct (split_on seps d ""); split; reflexivity.
    + specialize (IH (cur ++ String c "")). rewrite append_assoc in IH. apply IH.
      rewrite exists_char_app, Hcur. cbn [exists_char]. rewrite Hc. reflexivity.
Qed.

(* the chunks as lists: what all_arrays reads back *)
Fixpoint parts (fuel n : nat) (l : list json) : list (list json) :=
  match fuel, l with
  | S f, _ :: _ => firstn n l :: parts f n (skipn n l)
  | _, _ => []
  end.

Lemma all_arrays_chunks n : forall fuel l, all_arrays (chunks fuel n l) = Some (parts fuel n l).
Proof. induction fuel as [|f IH]; intros [|x l]; cbn [chunks parts all_arrays]; try reflexivity. rewrite IH. reflexivity. Qed.

Lemma concat_parts n : 0 < n -> forall fuel l, length l <= fuel -> concat (parts fuel n l) = l.
Proof.
  intros Hn. induction fuel as [|f IH]; intros [|x l] Hl; cbn [parts concat]; try reflexivity; [cbn in Hl; lia|].
  rewrite IH; [apply firstn_skipn|]. rewrite skipn_length. cbn [length] in *. lia.
Qed.

(* the test of partition_ok on the sizes: every part but the last has n items, the last has 1..n.  It is the inner
   fix of IntrinsicSpec.partition_ok, named: C13_array_partition uses sizes_parts by conversion *)
Definition sizes_ok (n : nat) : list (list json) -> bool :=
  fix go ps := match ps with
               | [] => true
               | [last] => Nat.leb 1 (length last) && Nat.leb (length last) n
               | p :: r => Nat.eqb (length p) n && go r
               end.

Lemma sizes_parts n : 0 < n -> forall fuel l, sizes_ok n (parts fuel n l) = true.
Proof.
  intros Hn. induction fuel as [|f IH]; intros [|x l]; try reflexivity.
  cbn [parts]. specialize (IH (skipn n (x :: l))). pose proof (firstn_length n (x :: l)) as Hf.
  destruct (parts f n (skipn n (x :: l))) as [|p ps] eqn:E; cbn [sizes_ok] in *.
  - rewrite Hf. cbn [length]. apply andb_true_iff. split; apply Nat.leb_le; lia.
  - (* another part follows, so more than n items were there *)
    rewrite IH, andb_true_r, Hf. apply Nat.eqb_eq. pose proof (skipn_length n (x :: l)) as Hs.
    destruct (skipn n (x :: l)); [destruct f; discriminate|]. cbn [length] in *. lia.
Qed.
