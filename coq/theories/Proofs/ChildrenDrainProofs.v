(* More about Model/Children.v: while no launch is redelivered, every armed timer of the protocol has an owner. *)
From Coq Require Import List Arith.
Import ListNotations.
From LSF Require Import Children ChildrenProofs.

Lemma lookup_none_not_in {A} x (l : list (nat * A)) : lookup x l = None -> ~ In x (map fst l).
Proof.
  induction l as [|[y a] r IH]; cbn; [tauto|]. destruct (Nat.eqb y x) eqn:E; [discriminate|].
  apply Nat.eqb_neq in E. intros H [F|F]; [contradiction|]. exact (IH H F).
Qed.

(* owned, over the two maps it reads: steps change `pend` and `kids` one at a time *)
Definition owned_pk (p : list (xid * preq)) (k : list (xid * cphase)) (n : tmr) : Prop :=
  (exists c q, lookup c p = Some q /\ q_timer q = n) \/ (exists c, lookup c k = Some (CBlocked n)).
Definition owned (w : cworld) (n : tmr) : Prop := owned_pk (pend w) (kids w) n.
Definition ArmedOk (w : cworld) : Prop := forall n, In n (armed w) -> owned w n.

Lemma owned_set_kid p k n c ph : owned_pk p k n -> lookup c k <> Some (CBlocked n) -> owned_pk p (set_key c ph k) n.
Proof. intros [O|[d L]] N; [now left|right]. exists d. now apply lookup_set_keeps. Qed.
Lemma owned_remove p k n c q : owned_pk p k n -> lookup c p = Some q -> q_timer q <> n -> owned_pk (remove_key c p) k n.
Proof. intros [(d & q' & L & T)|O] Lc N; [left|now right]. exists d, q'. split; [apply lookup_remove_keeps|]; congruence. Qed.
Lemma owned_set p k n c q : owned_pk p k n -> lookup c p = None -> owned_pk (set_key c q p) k n.
Proof. intros [(d & q' & L & T)|O] Lc; [left|now right]. exists d, q'. split; [apply lookup_set_keeps|]; congruence. Qed.

Lemma armed_ok_enter c ph a w : ArmedOk w ->
  (forall x, In x a -> ph = CBlocked x \/ In x (armed w) /\ lookup c (kids w) <> Some (CBlocked x)) -> ArmedOk (enter c ph a w).
Proof.
  intros AO H x Hx. destruct (H x Hx) as [->|[Ha N]]; [right; exists c; apply lookup_set_same|].
  apply owned_set_kid; [exact (AO x Ha)|exact N].
Qed.
Lemma armed_ok_finish c q v w : lookup c (pend w) = Some q -> ArmedOk w -> ArmedOk (finish c q v w).
Proof.
  intros L AO x Hx. apply in_remove_nat in Hx as [Hx N].
  apply (owned_remove _ _ _ _ q); [exact (AO x Hx)|exact L|congruence].
Qed.

Lemma armed_ok_step w i w' : cstep_spec w i w' -> first_delivery i -> PendOk w -> KeysOk w -> ArmedOk w -> ArmedOk w'.
Proof.
  induction 1; cbn [first_delivery]; intros FD PO KO AO.
  - (* sp_launch: the new child has no request and is blocked on nothing; a synchronous launch arms the timer of its request *)
    destruct r; [contradiction|]. intros x Hx. unfold owned; cbn in *.
    assert (Old : In x (armed w) -> owned_pk (pend w) (set_key c CQueued (kids w)) x)
      by (intros Ha; apply owned_set_kid; [exact (AO x Ha)|congruence]).
    destruct f; [exact (Old Hx)|]. apply in_app_or in Hx as [Hx|[<-|[]]].
    + apply owned_set; [exact (Old Hx)|]. apply (pend_ok_none w c PO). intros (ph & L & _). congruence.
    + left. eexists c, _. split; [apply lookup_set_same|reflexivity].
  - (* sp_move *) apply armed_ok_enter; [exact AO|]. intros x Hx. apply in_app_or in Hx as [Hx|Hx]; [right; exact (proj2 Lv x Hx)|left].
    destruct b as [n|]; [destruct Hx as [<-|[]]; reflexivity|destruct Hx].
  - (* sp_end *) apply armed_ok_enter; [exact AO|]. intros x Hx. right; exact (proj2 Lv x Hx).
  - (* sp_handover *) apply armed_ok_finish; [exact L|]. apply armed_ok_enter; [exact AO|]. intros x Hx. right; exact (proj2 Lv x Hx).
  - (* sp_giveup *) apply IHcstep_spec; [destruct Hj as [->|[? ->]]; exact I|apply pend_ok_finish, PO|apply keyed_remove, KO|].
    apply armed_ok_finish; [exact (KO c q Hin)|exact AO].
  - exact AO.
Qed.

Theorem armed_ok_run l w : crun cinit l = Some w -> Forall first_delivery l -> ArmedOk w.
Proof.
  revert l w. apply (crun_ind (fun l w => Forall first_delivery l -> ArmedOk w)); [intros _ n []|].
  intros l w i w' R IH S F. pose proof (Forall_elt _ _ _ F) as Fi. apply Forall_app in F as [F _].
  pose proof (cinv_run l w R) as CI. exact (armed_ok_step _ _ _ S Fi (ci_pend l w CI F) (ci_keys l w CI) (IH F)).
Qed.
