(* C12 over token lists: what update_path (the writer) leaves for select_tokens (the reader) to find. *)
From LSF Require Import PyStr Json PathSpec Paths.
Open Scope string_scope.

(* int() also accepts a sign, blanks and underscores (-1, " 7", 1_0).  The writer indexes an array with whatever int() accepts,
   the reader only with digit strings: the laws are about tokens that int() refuses or that are digit strings. *)
Definition tok_ok (t : string) : bool :=
  match py_int t with None => true | Some _ => all_digits t end.

Lemma py_int_digits t : all_digits t = true -> py_int t = Some (Z.of_N (digits_val t)).
Proof. unfold py_int. intros ->. reflexivity. Qed.

Lemma py_index_nonneg len i :
  (0 <= i)%Z -> py_index len i = if Z.ltb i (Z.of_nat len) then Some (Z.to_nat i) else None.
Proof. intros H. apply Z.ltb_ge in H. unfold py_index. rewrite H. cbv zeta iota. rewrite H. reflexivity. Qed.

Lemma rbind_ok {A B} (m : result A) (f : A -> result B) b :
  rbind m f = Ok b -> exists a, m = Ok a /\ f a = Ok b.
Proof. destruct m; cbn; intros H; [eauto|discriminate]. Qed.

Lemma rbind_err {A B} (m : result A) (g : A -> B) e : rbind m (fun a => Ok (g a)) = Err e -> m = Err e.
Proof. destruct m; [discriminate|intros [= ->]; reflexivity]. Qed.

(* what a successful one-level update looks like *)
Lemma update_path_inv j t rest r j' :
  update_path j (t :: rest) r = Ok j' ->
  (exists l i n old v, j = JArr l /\ py_int t = Some i /\ py_index (length l) i = Some n /\
      nth_error l n = Some old /\ update_path old rest r = Ok v /\ j' = JArr (list_set l n v))
  \/
  (exists kv v, j = JObj kv /\ py_int t = None /\
      update_path (match obj_get kv t with Some o => o | None => JObj [] end) rest r = Ok v /\
      j' = JObj (obj_set kv t v)).
Proof.
  cbn [update_path]. destruct j; try discriminate.
  - destruct (py_int t) as [i|] eqn:Ei; [|discriminate].
    destruct (py_index (length l) i) as [n|] eqn:En; [|discriminate].
    destruct (nth_error l n) as [old|] eqn:Eo; [|discriminate].
    intros H. apply rbind_ok in H as (v & Hv & Hj). inversion Hj; subst.
    left. exists l, i, n, old, v. repeat split; assumption.
  - destruct (py_int t) eqn:Ei; [discriminate|].
    intros H. apply rbind_ok in H as (v & Hv & Hj). inversion Hj; subst.
    right. exists kv, v. repeat split; assumption.
Qed.

Lemma arr_index_digits t len i n :
  tok_ok t = true -> py_int t = Some i -> py_index len i = Some n ->
  all_digits t = true /\ n = N.to_nat (digits_val t) /\ n < len.
Proof.
  unfold tok_ok. intros Hok Hi Hn. rewrite Hi in Hok. split; [exact Hok|].
  rewrite (py_int_digits _ Hok) in Hi. injection Hi as <-. rewrite py_index_nonneg in Hn by lia.
  destruct (Z.ltb_spec (Z.of_N (digits_val t)) (Z.of_nat len)); [|discriminate]. injection Hn as <-. lia.
Qed.

Theorem put_get_tokens : forall toks j r j',
  forallb tok_ok toks = true -> update_path j toks r = Ok j' -> select_tokens j' toks = Some r.
Proof.
  induction toks as [|t rest IH]; intros j r j' Hok H.
  - cbn in H. injection H as <-. reflexivity.
  - cbn [forallb] in Hok. apply andb_true_iff in Hok as [Ht Hrest].
    apply update_path_inv in H as [(l & i & n & old & v & -> & Hi & Hn & Ho & Hv & ->)|(kv & v & -> & Hi & Hv & ->)].
    + destruct (arr_index_digits _ _ _ _ Ht Hi Hn) as (Hd & -> & Hlt).
      cbn [select_tokens]. rewrite Hd, nth_list_set_same by assumption. eapply IH; eassumption.
    + cbn [select_tokens]. rewrite obj_get_set_same. eapply IH; eassumption.
Qed.

Lemma tok_same_refl t : tok_same t t = true.
Proof. unfold tok_same. rewrite String.eqb_refl. reflexivity. Qed.

Lemma tok_same_digits a b :
  all_digits a = true -> all_digits b = true -> tok_same a b = N.eqb (digits_val a) (digits_val b).
Proof.
  unfold tok_same. intros -> ->. destruct (String.eqb_spec a b) as [->|_]; [rewrite N.eqb_refl|]; reflexivity.
Qed.

Theorem put_frame_tokens : forall toks j r j' q,
  forallb tok_ok toks = true -> update_path j toks r = Ok j' ->
  comparable toks q = false -> select_tokens j' q = select_tokens j q.
Proof.
  induction toks as [|t rest IH]; intros j r j' q Hok H Hc; [discriminate|].
  destruct q as [|b q']; [discriminate|].
  cbn [forallb] in Hok. apply andb_true_iff in Hok as [Ht Hrest].
  cbn [comparable] in Hc.
  apply update_path_inv in H as [(l & i & n & old & v & -> & Hi & Hn & Ho & Hv & ->)|(kv & v & -> & Hi & Hv & ->)].
  - destruct (arr_index_digits _ _ _ _ Ht Hi Hn) as (Hd & -> & Hlt).
    cbn [select_tokens]. destruct (all_digits b) eqn:Hb; [|reflexivity].
    rewrite (tok_same_digits _ _ Hd Hb) in Hc. destruct (N.eqb_spec (digits_val t) (digits_val b)) as [E|E].
    + rewrite <- E, nth_list_set_same, Ho by assumption. eapply IH; eassumption.
    + rewrite nth_list_set_other; [reflexivity|]. intros F. apply E, N2Nat.inj, F.
  - cbn [select_tokens]. destruct (String.eqb_spec t b) as [<-|N].
    + rewrite tok_same_refl in Hc. cbn [andb] in Hc. rewrite obj_get_set_same.
      rewrite (IH _ _ _ _ Hrest Hv Hc).
      (* a member that was absent was taken to be {}: nothing is read below it, and q' is not empty *)
      destruct (obj_get kv t); [reflexivity|]. destruct q'; [destruct rest; discriminate|reflexivity].
    + rewrite obj_get_set_other by assumption. reflexivity.
Qed.

(* a failure is raised at some step as ResultPathMatchFailure and handed up unchanged *)
Theorem put_error_typing_tokens : forall toks j r e,
  update_path j toks r = Err e -> e = ResultPathMatchFailure.
Proof.
  induction toks as [|t rest IH]; intros j r e H; cbn [update_path] in H; [discriminate|].
  destruct j as [| | | | |l|kv]; try congruence; destruct (py_int t) as [i|]; try congruence.
  - destruct (py_index (length l) i) as [n|]; try congruence. destruct (nth_error l n); try congruence.
    apply rbind_err in H. exact (IH _ _ _ H).
  - apply rbind_err in H. exact (IH _ _ _ H).
Qed.

Lemma update_path_not_null t rest j r j' :
  update_path j (t :: rest) r = Ok j' -> truthy j' = true /\ is_null j' = false.
Proof.
  intros H. apply update_path_inv in H as [(l & i & n & old & v & -> & _ & _ & Ho & _ & ->)|(kv & v & -> & _ & _ & ->)].
  - destruct l; [destruct n; discriminate Ho|]. destruct n; split; reflexivity.
  - destruct kv as [|[k x] kv]; cbn; [split; reflexivity|]. destruct (String.eqb k t); split; reflexivity.
Qed.

(* well-formedness (unique member names) is preserved *)
Theorem put_wf_tokens : forall toks j r j',
  json_wf j = true -> json_wf r = true -> update_path j toks r = Ok j' -> json_wf j' = true.
Proof.
  induction toks as [|t rest IH]; intros j r j' Hj Hr H.
  - cbn in H. injection H as <-. exact Hr.
  - apply update_path_inv in H as [(l & i & n & old & v & -> & Hi & Hn & Ho & Hv & ->)|(kv & v & -> & Hi & Hv & ->)].
    + cbn [json_wf] in *. apply forallb_list_set; [exact Hj|]. refine (IH _ _ _ _ Hr Hv).
      exact (proj1 (forallb_forall _ _) Hj _ (nth_error_In _ _ Ho)).
    + rewrite json_wf_obj in *. apply andb_true_iff in Hj as [H1 H2].
      rewrite keys_nodup_obj_set by exact H1. apply forallb_obj_set; [exact H2|]. refine (IH _ _ _ _ Hr Hv).
      destruct (obj_get kv t) eqn:G; [|reflexivity]. exact (proj1 (forallb_forall _ _) H2 _ (obj_get_in _ _ _ G)).
Qed.
