(* The reference model of the API (Spec/ApiSpec.v): the laws of the state machine map, and what one call
   can do to the two maps ([api_step_effect], [api_step_describe]). *)
From Coq Require Import List Bool String.
Import ListNotations.
From LSF Require Import PyStr Json ApiSpec.
Open Scope string_scope.

Lemma sm_find_none_notin a l : sm_find a l = None -> ~ In a (map sm_arn l).
Proof.
  induction l as [|x l IH]; cbn; [tauto|]. destruct (String.eqb_spec (sm_arn x) a); [discriminate|].
  intros H [F|F]; [contradiction|apply IH; assumption].
Qed.

Lemma sm_find_some_in a l r : sm_find a l = Some r -> In a (map sm_arn l).
Proof.
  induction l as [|x l IH]; cbn; [discriminate|].
  destruct (String.eqb_spec (sm_arn x) a); [left; assumption|right; apply IH; assumption].
Qed.

Lemma sm_find_put_same r l : sm_find (sm_arn r) (sm_put r l) = Some r.
Proof.
  induction l as [|x l IH]; cbn; [rewrite String.eqb_refl; reflexivity|].
  destruct (String.eqb (sm_arn x) (sm_arn r)) eqn:E; cbn; [rewrite String.eqb_refl; reflexivity|rewrite E; exact IH].
Qed.

Lemma sm_find_put_other r l a : a <> sm_arn r -> sm_find a (sm_put r l) = sm_find a l.
Proof.
  intros N. induction l as [|x l IH]; cbn.
  - destruct (String.eqb_spec (sm_arn r) a); [congruence|reflexivity].
  - destruct (String.eqb_spec (sm_arn x) (sm_arn r)) as [E|E]; cbn.
    + rewrite E. destruct (String.eqb_spec (sm_arn r) a); [congruence|reflexivity].
    + destruct (String.eqb (sm_arn x) a); [reflexivity|exact IH].
Qed.

Lemma sm_put_keys r l :
  map sm_arn (sm_put r l) =
  match sm_find (sm_arn r) l with Some _ => map sm_arn l | None => (map sm_arn l ++ [sm_arn r])%list end.
Proof.
  induction l as [|x l IH]; cbn; [reflexivity|].
  destruct (String.eqb_spec (sm_arn x) (sm_arn r)) as [E|E]; cbn; [rewrite E; reflexivity|].
  rewrite IH. destruct (sm_find (sm_arn r) l); reflexivity.
Qed.

Lemma sm_put_nodup r l : NoDup (map sm_arn l) -> NoDup (map sm_arn (sm_put r l)).
Proof.
  intros H. rewrite sm_put_keys. destruct (sm_find (sm_arn r) l) eqn:F; [exact H|].
  apply (NoDup_Add (Add_app _ _ [])). rewrite app_nil_r. split; [exact H|apply sm_find_none_notin; exact F].
Qed.

(* [sm_del] removes the first record only: without duplicates that is the only one *)
Lemma sm_find_del_same a l : NoDup (map sm_arn l) -> sm_find a (sm_del a l) = None.
Proof.
  induction l as [|x l IH]; cbn; intros H; [reflexivity|]. inversion H as [|? ? Hx Hl]; subst.
  destruct (String.eqb_spec (sm_arn x) a) as [E|E].
  - subst. destruct (sm_find (sm_arn x) l) eqn:F; [|reflexivity]. destruct Hx. exact (sm_find_some_in _ _ _ F).
  - cbn. destruct (String.eqb_spec (sm_arn x) a); [contradiction|]. apply IH. exact Hl.
Qed.

Lemma sm_find_del_other a b l : a <> b -> sm_find b (sm_del a l) = sm_find b l.
Proof.
  intros N. induction l as [|x l IH]; cbn; [reflexivity|]. destruct (String.eqb_spec (sm_arn x) a) as [E|E].
  - destruct (String.eqb_spec (sm_arn x) b); [congruence|reflexivity].
  - cbn. destruct (String.eqb (sm_arn x) b); [reflexivity|exact IH].
Qed.

Lemma sm_del_incl a l : incl (map sm_arn (sm_del a l)) (map sm_arn l).
Proof. intros b. induction l as [|x l IH]; cbn; [tauto|]. destruct (String.eqb (sm_arn x) a); cbn; tauto. Qed.

Lemma sm_del_nodup a l : NoDup (map sm_arn l) -> NoDup (map sm_arn (sm_del a l)).
Proof.
  induction l as [|x l IH]; cbn; intros H; [constructor|]. inversion H as [|? ? Hx Hl]; subst.
  destruct (String.eqb (sm_arn x) a); [exact Hl|]. cbn. constructor; [|apply IH; exact Hl].
  intros F. apply Hx, (sm_del_incl a l _ F).
Qed.

Definition wf (s : api) : Prop := NoDup (map sm_arn (sms s)).

Definition api_errors : list string :=
  ["SerializationException"; "InvalidAction"; "MissingRequiredParameter"; "InvalidName"; "InvalidArn";
   "InvalidDefinition"; "InvalidLoggingConfiguration"; "InvalidExecutionInput"; "StateMachineTypeNotSupported";
   "StateMachineAlreadyExists"; "StateMachineDoesNotExist"; "ExecutionDoesNotExist"].
Definition api_error (r : response) : bool :=
  match r with RErr e => existsb (String.eqb e) api_errors | _ => false end.

Lemma sm_arn_param_cases q k kind :
  match sm_arn_param q k kind with inl a => p q k = Some (JStr a) | inr r => api_error r = true end.
Proof.
  unfold sm_arn_param. destruct (falsy (p q k)); [reflexivity|].
  destruct (p q k) as [[| | | |a| |]|]; try reflexivity. destruct (valid_states_arn kind a); reflexivity.
Qed.

Lemma sm_arn_param_valid q k kind a :
  p q k = Some (JStr a) -> valid_states_arn kind a = true -> sm_arn_param q k kind = inl a.
Proof. intros P V. unfold sm_arn_param. rewrite P, V. destruct a; [discriminate V|reflexivity]. Qed.

(* The state after a call and the kind of answer, for every action at once: this is all that the
   theorems of C10 need to know of [api_step].  Only CreateStateMachine is given with its answer; that
   the other successes are not a Create is what tells them apart from it. *)
Inductive step_effect (s : api) (q : request) : api * response -> Prop :=
| eff_none b : action q <> "CreateStateMachine" -> step_effect s q (s, ROk b)
| eff_create r : check_definition q = Some (sm_def r) ->
    step_effect s q ({| sms := sm_put r (sms s); exs := exs s |},
                     ROk (JObj [("creationDate", z_json (now q)); ("stateMachineArn", JStr (sm_arn r))]))
(* UpdateStateMachine; no theorem asks which record r it puts *)
| eff_update r b : action q <> "CreateStateMachine" ->
    step_effect s q ({| sms := sm_put r (sms s); exs := exs s |}, ROk b)
| eff_del a : p q "stateMachineArn" = Some (JStr a) ->
    step_effect s q ({| sms := sm_del a (sms s); exs := exs s |}, REmpty)
| eff_exec e b : action q <> "CreateStateMachine" -> step_effect s q ({| sms := sms s; exs := e |}, ROk b)
(* last, since it fits every leaf that leaves the state alone and [constructor] tries in order *)
| eff_error r : api_error r = true -> step_effect s q (s, r).

Theorem api_step_effect s q : step_effect s q (api_step s q).
Proof.
  unfold api_step. cbv zeta.
  (* the goal is [step_effect s q (match x with ... end)]: follow the decision list, splitting on the
     scrutinee at the head until a leaf [(state, response)] is reached; the three scrutinees whose value
     a leaf's constructor asks for leave a hypothesis *)
  repeat lazymatch goal with
  | |- _ (match ?x with _ => _ end) =>
      lazymatch x with
      | String.eqb ?a "CreateStateMachine" => case (String.eqb_spec a "CreateStateMachine"); intros ?
      | sm_arn_param ?q ?k ?kind => generalize (sm_arn_param_cases q k kind); case x; intros ? ?
      | check_definition _ => destruct x eqn:?
      | _ => case x; intros
      end
  end.
  all: constructor; first [assumption | reflexivity].
Qed.

Lemma api_step_describe s q a r :
  action q = "DescribeStateMachine" -> p q "stateMachineArn" = Some (JStr a) ->
  valid_states_arn "stateMachine" a = true -> sm_find a (sms s) = Some r ->
  api_step s q = (s, ROk (sm_describe r (dumps_or (sm_def r)))).
Proof.
  intros A P V F. pose proof (sm_arn_param_valid _ _ _ _ P V) as E. revert E.
  (* once the request is taken apart its literal action selects the branch by computation;
     rewriting inside the unfolded [api_step] copies the whole function at every step *)
  destruct q as [act [kv|] dp ipo nw wl]; [|discriminate P]. cbn [action] in A. subst act.
  unfold api_step. lazy beta iota delta [action params String.eqb Ascii.eqb Bool.eqb].
  intros ->. rewrite F. reflexivity.
Qed.
