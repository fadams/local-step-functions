(* [rejected] on the two shapes of comparison rows that the enforcement points have. *)
From LSF Require Import PyStr Json GenTypes Limits.
Open Scope N_scope.

(* Point and limit are variables, so these apply to every enforcement point by unification alone.  A trap: a
   lemma stated with [spec_accept_data n] and used where the goal reads [n <=? 262144] makes the kernel convert
   the two forms of the test, and it unfolds [Pos.compare_cont] down both branches of every bit of the literal. *)
Lemma rejected_gt what lim n : rejected [(what, Gt_, lim)] n = negb (n <=? lim).
Proof. cbn [rejected existsb cmp_holds]. rewrite orb_false_r. apply N.ltb_antisym. Qed.

Lemma rejected_empty_or_gt what what' lim n :
  rejected [(what, Eq_, 0); (what', Gt_, lim)] n = negb ((1 <=? n) && (n <=? lim)).
Proof.
  cbn [rejected existsb cmp_holds]. rewrite orb_false_r, negb_andb, <- !N.ltb_antisym. f_equal.
  destruct (N.eqb_spec n 0), (N.ltb_spec n 1); try reflexivity; lia.
Qed.
