(* Dot, bracket-quoted and index notation are tokenised alike by the reader
   (parse_path, standing for jsonpath.normalize) and the writer (ref_tokens); hence what
   apply_jsonpath_m and apply_resultpath_m do on the text of a path rendered from segments. *)
From LSF Require Import PyStr Json Paths_gen PathSpec Paths PathProofs.
Open Scope string_scope.

Inductive seg := Dot (n : string) | Brq (n : string) | Idx (n : string).

Definition seg_tok (s : seg) : string := match s with Dot n | Brq n | Idx n => n end.

Definition name_ok (n : string) : bool :=
  negb (String.eqb n "") && forall_char is_name_char n && tok_ok n.

(* a step that reader and writer both take: a name of name characters, or digits *)
Definition seg_ok (s : seg) : bool :=
  match s with Dot n | Brq n => name_ok n | Idx n => all_digits n end.

Definition render_seg (s : seg) : string :=
  match s with
  | Dot n => String "." n
  | Brq n => String "[" (String "'" (n ++ String "'" (String "]" "")))
  | Idx n => String "[" (n ++ String "]" "")
  end.

Fixpoint render_segs (l : list seg) : string :=
  match l with [] => "" | s :: r => render_seg s ++ render_segs r end.

Definition render (l : list seg) : string := String "$" (render_segs l).

(* What the writer's tokeniser takes literally: in dot notation a name of name characters, in bracket notation
   ANY characters except the apostrophe ('.', '$', '[', ']', ':', ' ', '@' ... included). *)
Definition quote_free (n : string) : bool := forall_char (fun a => negb (Ascii.eqb a "'")) n.
Definition wseg_ok (s : seg) : bool :=
  match s with
  | Dot n => negb (String.eqb n "") && forall_char is_name_char n
  | Brq n => quote_free n
  | Idx n => all_digits n
  end.

Lemma name_not_delim a : is_name_char a = true -> is_delim a = false.
Proof.
  intros H. apply not_true_is_false. intros D. apply existsb_exists in D as (d & Hd & E). apply Nat.eqb_eq in E.
  (* no code in the generated table is that of a name character *)
  assert (T : forallb (fun d => negb (is_name_char (ascii_of_nat d))) resultpath_delims = true) by reflexivity.
  rewrite forallb_forall in T. specialize (T d Hd). rewrite <- E, ascii_nat_embedding, H in T. discriminate T.
Qed.

Lemma digit_is_name a : is_digit a = true -> is_name_char a = true.
Proof. unfold is_name_char. intros ->. reflexivity. Qed.

Lemma delim_q : is_delim "'" = true. Proof. reflexivity. Qed.

Lemma not_delim_neq a d : is_delim a = false -> is_delim d = true -> Ascii.eqb a d = false.
Proof. intros Ha Hd. apply Ascii.eqb_neq. intros ->. congruence. Qed.

Lemma name_not_quote a : is_name_char a = true -> Ascii.eqb a "'" = false.
Proof. intros H. exact (not_delim_neq _ _ (name_not_delim _ H) delim_q). Qed.

(* the text does not go on with a character of class f *)
Definition stops (f : ascii -> bool) (s : string) : bool :=
  match s with "" => true | String a _ => negb (f a) end.

Definition delim_next (s : string) : bool :=
  match s with "" => true | String a _ => is_delim a end.

Lemma render_seg_app s rest :
  render_seg s ++ rest =
  match s with
  | Dot n => String "." (n ++ rest)
  | Brq n => String "[" (String "'" (n ++ String "'" (String "]" rest)))
  | Idx n => String "[" (n ++ String "]" rest)
  end.
Proof. destruct s; cbn [render_seg append]; rewrite ?append_assoc; reflexivity. Qed.

Lemma render_segs_delim_next l : delim_next (render_segs l) = true.
Proof. destruct l as [|[] l]; reflexivity. Qed.

Lemma render_segs_stops_name l : stops is_name_char (render_segs l) = true.
Proof. destruct l as [|[] l]; reflexivity. Qed.

Lemma length_render_seg_pos s : 1 <= String.length (render_seg s).
Proof. destruct s; cbn; lia. Qed.

Lemma flush_cons n : String.eqb n "" = false -> flush n = cons n.
Proof. unfold flush. intros ->. reflexivity. Qed.

Lemma option_map_flush_nil (x : option (list string)) : option_map (flush "") x = x.
Proof. destruct x; reflexivity. Qed.

(* Outside a quoted name the tokeniser looks one character ahead (for "['") and treats the last character of the text apart;
   the next three lemmas state its steps without either. *)
Lemma refq_char cur a s :
  is_delim a = false -> ref_tokens_q false cur (String a s) = ref_tokens_q false (cur ++ String a "") s.
Proof.
  intros H. destruct s as [|b t]; cbn [ref_tokens_q]; rewrite H.
  - rewrite flush_cons by (destruct cur; reflexivity). reflexivity.
  - rewrite (not_delim_neq a "[" H eq_refl). reflexivity.
Qed.

Lemma refq_skip d s :
  is_delim d = true -> d <> "["%char -> ref_tokens_q false "" (String d s) = ref_tokens_q false "" s.
Proof.
  intros Hd Hb. apply Ascii.eqb_neq in Hb. destruct s as [|b t]; cbn [ref_tokens_q]; rewrite Hd; [reflexivity|].
  rewrite Hb. apply option_map_flush_nil.
Qed.

Lemma refq_flush cur s :
  delim_next s = true -> ref_tokens_q false cur s = option_map (flush cur) (ref_tokens_q false "" s).
Proof.
  destruct s as [|d [|b t]]; cbn [delim_next ref_tokens_q]; [reflexivity|intros ->; reflexivity|intros ->].
  (* whether or not "['" follows *)
  rewrite !option_map_flush_nil. destruct (_ && _); reflexivity.
Qed.

(* the '[' of an index does not open a quoted name *)
Lemma refq_skip_lb n s :
  String.eqb n "" = false -> forall_char is_name_char n = true ->
  ref_tokens_q false "" (String "[" (n ++ s)) = ref_tokens_q false "" (n ++ s).
Proof.
  destruct n as [|a n]; [discriminate|]. intros _ H. apply andb_true_iff in H as [Ha _].
  cbn [append ref_tokens_q Ascii.eqb Bool.eqb andb]. rewrite (name_not_quote _ Ha). apply option_map_flush_nil.
Qed.

(* a run of name characters up to the next delimiter (or the end) is one token *)
Lemma refq_run cur n rest :
  forall_char is_name_char n = true -> delim_next rest = true ->
  ref_tokens_q false cur (n ++ rest) = option_map (flush (cur ++ n)) (ref_tokens_q false "" rest).
Proof.
  intros Hn Hr. revert cur. induction n as [|a n IH]; intros cur; cbn [append forall_char] in *.
  - rewrite append_nil_r. apply refq_flush, Hr.
  - apply andb_true_iff in Hn as [Ha Hn]. rewrite refq_char by apply name_not_delim, Ha.
    rewrite (IH Hn), append_assoc. reflexivity.
Qed.

(* inside a quoted name: everything up to the closing "']" is the name *)
Lemma refq_quoted cur n rest :
  quote_free n = true ->
  ref_tokens_q true cur (n ++ String "'" (String "]" rest)) = option_map (cons (cur ++ n)) (ref_tokens_q false "" rest).
Proof.
  revert cur. induction n as [|a n IH]; intros cur H; cbn [append].
  - rewrite append_nil_r. reflexivity.
  - apply andb_true_iff in H as [Ha Hn]. apply negb_true_iff in Ha.
    transitivity (ref_tokens_q true (cur ++ String a "") (n ++ String "'" (String "]" rest))).
    + destruct n; cbn [append ref_tokens_q]; rewrite Ha; reflexivity.
    + rewrite (IH _ Hn), append_assoc. reflexivity.
Qed.

Lemma refq_seg s rest :
  wseg_ok s = true -> delim_next rest = true ->
  ref_tokens_q false "" (render_seg s ++ rest) = option_map (cons (seg_tok s)) (ref_tokens_q false "" rest).
Proof.
  intros Hs Hr. rewrite render_seg_app. destruct s as [n|n|n]; cbn [wseg_ok seg_tok] in *.
  - apply andb_true_iff in Hs as [Hne Hch]. apply negb_true_iff in Hne.
    rewrite refq_skip, refq_run, flush_cons by (assumption || reflexivity || discriminate). reflexivity.
  - cbn [ref_tokens_q Ascii.eqb Bool.eqb andb]. rewrite option_map_flush_nil. apply refq_quoted, Hs.
  - apply andb_true_iff in Hs as [Hne Hd]. apply negb_true_iff in Hne. apply (forall_char_impl _ _ _ digit_is_name) in Hd.
    rewrite refq_skip_lb, refq_run, refq_skip, flush_cons by (assumption || reflexivity || discriminate). reflexivity.
Qed.

Theorem ref_tokens_render_w l :
  forallb wseg_ok l = true -> ref_tokens (render l) = Some (map seg_tok l).
Proof.
  intros H. unfold ref_tokens, render. rewrite refq_skip by (reflexivity || discriminate).
  induction l as [|s l IH]; cbn [forallb render_segs map] in *; [reflexivity|].
  apply andb_true_iff in H as [Hs Hl]. rewrite refq_seg, (IH Hl) by (assumption || apply render_segs_delim_next). reflexivity.
Qed.

Lemma take_while_run f n rest :
  forall_char f n = true -> stops f rest = true -> take_while f (n ++ rest) = (n, rest).
Proof.
  intros Hn Hr. induction n as [|a n IH]; cbn [append forall_char] in *.
  - destruct rest as [|d r]; cbn [take_while stops] in *; [reflexivity|]. apply negb_true_iff in Hr. rewrite Hr. reflexivity.
  - apply andb_true_iff in Hn as [Ha Hn]. cbn [take_while]. rewrite Ha, (IH Hn). reflexivity.
Qed.

Lemma name_ok_parts n :
  name_ok n = true -> String.eqb n "" = false /\ forall_char is_name_char n = true /\ tok_ok n = true.
Proof.
  unfold name_ok. intros H. apply andb_true_iff in H as [H H3]. apply andb_true_iff in H as [H1 H2].
  apply negb_true_iff in H1. auto.
Qed.

Lemma parse_segs_seg fuel s rest :
  seg_ok s = true -> stops is_name_char rest = true ->
  parse_segs (S fuel) (render_seg s ++ rest) = option_map (cons (seg_tok s)) (parse_segs fuel rest).
Proof.
  intros Hs Hr. rewrite render_seg_app. destruct s as [n|n|n]; cbn [seg_ok seg_tok parse_segs] in *.
  - apply name_ok_parts in Hs as (Hne & Hch & _). rewrite take_while_run, Hne by assumption. reflexivity.
  - apply name_ok_parts in Hs as (Hne & Hch & _). rewrite take_while_run, Hne by (assumption || reflexivity). reflexivity.
  - apply andb_true_iff in Hs as [Hne Hd]. apply negb_true_iff in Hne.
    destruct n as [|a n]; [discriminate Hne|]. pose proof Hd as Ha. apply andb_true_iff in Ha as [Ha _].
    cbn [append]. rewrite ascii_match_quote, (name_not_quote _ (digit_is_name _ Ha)).
    change (String a (n ++ String "]" rest)) with (String a n ++ String "]" rest).
    rewrite take_while_run, Hne by (assumption || reflexivity). reflexivity.
Qed.

Lemma parse_segs_render l : forall fuel,
  forallb seg_ok l = true -> String.length (render_segs l) <= fuel ->
  parse_segs (S fuel) (render_segs l) = Some (map seg_tok l).
Proof.
  induction l as [|s l IH]; intros fuel H Hf; cbn [forallb render_segs map] in *; [reflexivity|].
  apply andb_true_iff in H as [Hs Hl]. rewrite parse_segs_seg by (assumption || apply render_segs_stops_name).
  rewrite length_append in Hf. pose proof (length_render_seg_pos s).
  destruct fuel as [|fuel]; [lia|]. rewrite (IH _ Hl) by lia. reflexivity.
Qed.

Theorem parse_path_render l :
  forallb seg_ok l = true -> parse_path (render l) = Some (map seg_tok l).
Proof. intros H. apply parse_segs_render; [exact H|apply Nat.le_refl]. Qed.

Lemma seg_ok_wseg_ok s : seg_ok s = true -> wseg_ok s = true.
Proof.
  destruct s as [n|n|n]; cbn [seg_ok wseg_ok]; intros H.
  - apply name_ok_parts in H as (Hne & Hch & _). rewrite Hne, Hch. reflexivity.
  - apply name_ok_parts in H as (_ & Hch & _).
    refine (forall_char_impl _ _ _ _ Hch). intros a Ha. rewrite (name_not_quote _ Ha). reflexivity.
  - exact H.
Qed.

Lemma seg_ok_tok_ok s : seg_ok s = true -> tok_ok (seg_tok s) = true.
Proof.
  destruct s as [n|n|n]; cbn [seg_ok seg_tok]; intros H; [apply name_ok_parts, H|apply name_ok_parts, H|].
  unfold tok_ok. rewrite (py_int_digits _ H). exact H.
Qed.

Lemma forallb_wseg_ok l : forallb seg_ok l = true -> forallb wseg_ok l = true.
Proof. rewrite !forallb_forall. intros H s Hs. apply seg_ok_wseg_ok, H, Hs. Qed.

Lemma forallb_tok_ok l : forallb seg_ok l = true -> forallb tok_ok (map seg_tok l) = true.
Proof.
  rewrite !forallb_forall. intros H t Ht. apply in_map_iff in Ht as (s & <- & Hs). apply seg_ok_tok_ok, H, Hs.
Qed.

(* apply_resultpath: if input == None: input = {} *)
Definition norm_input (j : json) : json := if is_null j then JObj [] else j.

Lemma render_not_root l : l <> [] -> String.eqb (render l) "$" = false /\ prefixb "$$" (render l) = false.
Proof. destruct l as [|[] l]; [congruence| | |]; split; reflexivity. Qed.

(* on a rendered path the writer places the result along the segments' names ... *)
Theorem apply_resultpath_render segs j r :
  forallb wseg_ok segs = true -> segs <> [] ->
  apply_resultpath_m j r (Some (render segs)) = update_path (norm_input j) (map seg_tok segs) r.
Proof.
  intros Hok Hne. destruct (render_not_root _ Hne) as [H1 H2].
  unfold apply_resultpath_m. rewrite H1, H2, (ref_tokens_render_w _ Hok). reflexivity.
Qed.

(* ... and the reader selects along them *)
Theorem apply_jsonpath_render segs j :
  forallb seg_ok segs = true -> segs <> [] -> is_null j = false ->
  apply_jsonpath_m j (Some (render segs)) =
  Some (if truthy j
        then match select_tokens j (map seg_tok segs) with Some v => Ok v | None => Err PathMatchFailure end
        else Err PathMatchFailure).
Proof.
  intros Hok Hne Hn. destruct (render_not_root _ Hne) as [H1 _].
  unfold apply_jsonpath_m. rewrite Hn, H1, (parse_path_render _ Hok).
  destruct (truthy j); [destruct (select_tokens j (map seg_tok segs))|]; reflexivity.
Qed.

Lemma put_text_not_null segs j r j' :
  forallb seg_ok segs = true -> segs <> [] ->
  apply_resultpath_m j r (Some (render segs)) = Ok j' -> truthy j' = true /\ is_null j' = false.
Proof.
  intros Hok Hne. rewrite apply_resultpath_render by auto using forallb_wseg_ok.
  destruct segs; [congruence|apply update_path_not_null].
Qed.

Theorem put_get_text : forall segs j r j',
  forallb seg_ok segs = true -> segs <> [] ->
  apply_resultpath_m j r (Some (render segs)) = Ok j' ->
  apply_jsonpath_m j' (Some (render segs)) = Some (Ok r).
Proof.
  intros segs j r j' Hok Hne H. destruct (put_text_not_null _ _ _ _ Hok Hne H) as [Ht Hn].
  rewrite apply_jsonpath_render, Ht by assumption.
  rewrite apply_resultpath_render in H by auto using forallb_wseg_ok.
  rewrite (put_get_tokens _ _ _ _ (forallb_tok_ok _ Hok) H). reflexivity.
Qed.

Theorem put_frame_text : forall segs j r j' q,
  forallb seg_ok segs = true -> segs <> [] ->
  apply_resultpath_m j r (Some (render segs)) = Ok j' ->
  comparable (map seg_tok segs) q = false ->
  select_tokens j' q = select_tokens (norm_input j) q.
Proof.
  intros segs j r j' q Hok Hne. rewrite apply_resultpath_render by auto using forallb_wseg_ok.
  apply put_frame_tokens, forallb_tok_ok, Hok.
Qed.

(* a bracket-quoted name that is never closed cannot be placed *)
Example unterminated_name_is_unplaceable : apply_resultpath_m (JObj []) (JInt 1) (Some "$.a['b") = Err ResultPathMatchFailure.
Proof. reflexivity. Qed.
Example special_names_are_literal :
  ref_tokens "$['a.b'].c['x:y$[0]'][2]" = Some ["a.b"; "c"; "x:y$[0]"; "2"] /\ forallb wseg_ok [Brq "a.b"; Dot "c"; Brq "x:y$[0]"; Idx "2"] = true.
Proof. split; reflexivity. Qed.
