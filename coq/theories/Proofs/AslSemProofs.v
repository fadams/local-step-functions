From LSF Require Import PyStr Json AslSem.
Open Scope string_scope.

(* the status and result of an execution are those of the run of its top-level machine, started
   with no invocation counted: which states end a machine, and how, is said by run_machine *)
Lemma execution_outcome orc fuel m input ctx :
  match run_execution fuel orc (JObj m) input ctx with
  | XSucceeded out => exists cnt, run_machine orc fuel m input ctx [] = (XSucceeded out, cnt)
  | XFailed e => exists cnt, run_machine orc fuel m input ctx [] = (XFailed e, cnt)
  | _ => True
  end.
Proof.
  unfold run_execution. destruct (run_machine orc fuel m input ctx []) as [r cnt]. cbn [fst].
  destruct r; eauto.
Qed.
