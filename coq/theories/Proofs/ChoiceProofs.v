(* Every comparison, of the model and of the specification, is a three-way comparison read through
   cmp_of_comparison; the specification is taken operator family by family, the handlers kind by kind. *)
From LSF Require Import PyStr Json GenTypes Choice_gen Paths Timestamp Choice ChoiceSpec.
From Coq Require Import QArith.
Close Scope Q_scope.
Open Scope string_scope.

(* the table as documented; `erase` drops the digests that pin the hand-modelled handlers *)
Fixpoint erase (k : choice_kind) : choice_kind :=
  match k with KSpecial _ => KSpecial "" | KGuard k' => KGuard (erase k') | x => x end.

Definition documented_table : list (string * choice_kind) := [
  ("And", KSpecial ""); ("Or", KSpecial ""); ("Not", KSpecial "");
  ("BooleanEquals", KGuard (KCmp Eq_ TBool));
  ("NumericEquals", KNum Eq_); ("NumericGreaterThan", KNum Gt_); ("NumericGreaterThanEquals", KNum Ge_);
  ("NumericLessThan", KNum Lt_); ("NumericLessThanEquals", KNum Le_);
  ("StringEquals", KCmp Eq_ TStr); ("CaseInsensitiveStringEquals", KCmpLower Eq_);
  ("StringGreaterThan", KCmp Gt_ TStr); ("StringGreaterThanEquals", KCmp Ge_ TStr);
  ("StringLessThan", KCmp Lt_ TStr); ("StringLessThanEquals", KCmp Le_ TStr);
  ("StringMatches", KSpecial "");
  ("TimestampEquals", KTs Eq_); ("TimestampGreaterThan", KTs Gt_); ("TimestampGreaterThanEquals", KTs Ge_);
  ("TimestampLessThan", KTs Lt_); ("TimestampLessThanEquals", KTs Le_);
  ("IsBoolean", KSpecial ""); ("IsNull", KSpecial ""); ("IsNumeric", KSpecial ""); ("IsString", KSpecial "");
  ("IsPresent", KSpecial ""); ("IsTimestamp", KSpecial "")].

Definition rel_name (c : cmp) : string :=
  match c with
  | Eq_ => "Equals" | Lt_ => "LessThan" | Le_ => "LessThanEquals"
  | Gt_ => "GreaterThan" | Ge_ => "GreaterThanEquals" | Ne_ => "NotEquals"
  end.

(* Every comparison of the model reads a three-way comparison through cmp_of_comparison, and so does the
   specification's q_cmp.  Numbers: Qle_bool, Qeq_bool and Qcompare all compare the same two cross products. *)
Lemma cmp_Q_compare c a b : cmp_Q c a b = cmp_of_comparison c (a ?= b)%Q.
Proof.
  unfold cmp_Q, Qle_bool, Qeq_bool, Zeq_bool, Z.leb, Qcompare.
  rewrite (Z.compare_antisym (Qnum a * QDen b) (Qnum b * QDen a)).
  destruct c, (Qnum a * QDen b ?= Qnum b * QDen a)%Z; reflexivity.
Qed.

Lemma q_cmp_compare c a b : c <> Ne_ -> q_cmp (rel_name c) a b = Some (cmp_of_comparison c (a ?= b)%Q).
Proof.
  intros N. unfold q_cmp, Qle_bool, Qeq_bool, Zeq_bool, Z.leb, Qcompare.
  destruct c; try congruence; cbn [rel_name]; destruct (Qnum a * QDen b ?= Qnum b * QDen a)%Z; reflexivity.
Qed.

Lemma cmp_Z_compare c x y : cmp_Z c x y = cmp_of_comparison c (inject_Z x ?= inject_Z y)%Q.
Proof.
  unfold Qcompare, inject_Z. cbn [Qnum Qden]. rewrite !Z.mul_1_r.
  unfold cmp_Z, Z.ltb, Z.leb. rewrite Z.eqb_compare, (Z.compare_antisym x y).
  destruct c, (x ?= y)%Z; reflexivity.
Qed.

(* Strings: the specification's order and equality on code points are the model's three-way comparison read as
   < and as ==; the order with the operands exchanged is the comparison reversed *)
Lemma str_compare_antisym a : forall b, str_compare b a = CompOpp (str_compare a b).
Proof.
  induction a as [|x a IH]; intros [|y b]; cbn [str_compare]; try reflexivity.
  rewrite (Nat.compare_antisym (nat_of_ascii x)).
  destruct (Nat.compare (nat_of_ascii x) (nat_of_ascii y)); [apply IH|reflexivity|reflexivity].
Qed.

Lemma s_lt_compare a : forall b, s_lt a b = cmp_str Lt_ a b.
Proof.
  unfold s_lt, cmp_str. induction a as [|x a IH]; intros [|y b]; cbn [str_compare codes_of_str lex_lt]; try reflexivity.
  rewrite Nat.ltb_compare, Nat.eqb_compare.
  destruct (Nat.compare (nat_of_ascii x) (nat_of_ascii y)); [apply IH|reflexivity|reflexivity].
Qed.

Lemma s_eq_compare a : forall b, s_eq a b = cmp_str Eq_ a b.
Proof.
  unfold s_eq, cmp_str. induction a as [|x a IH]; intros [|y b]; cbn [str_compare String.eqb]; try reflexivity.
  destruct (Ascii.eqb_spec x y) as [->|N].
  - rewrite Nat.compare_refl. apply IH.
  - destruct (Nat.compare_spec (nat_of_ascii x) (nat_of_ascii y)) as [E| |]; try reflexivity.
    (* characters with the same code are the same *)
    destruct N. rewrite <- (ascii_nat_embedding x), E. apply ascii_nat_embedding.
Qed.

Lemma cmp_str_spec c a b : c <> Ne_ ->
  Some (cmp_str c a b) =
  match c with
  | Eq_ => Some (s_eq a b) | Lt_ => Some (s_lt a b) | Le_ => Some (s_lt a b || s_eq a b)
  | Gt_ => Some (s_lt b a) | Ge_ => Some (s_lt b a || s_eq a b) | Ne_ => None
  end.
Proof.
  intros N. rewrite !s_lt_compare, s_eq_compare. unfold cmp_str. rewrite (str_compare_antisym a b).
  destruct c, (str_compare a b); reflexivity || congruence.
Qed.

(* case-insensitive equality: lower-casing both sides = folding both sides.  The two case tables of
   Latin-1 (str.lower() in the engine, upper-case folding in the specification) are compared character
   by character: 2 x 256 evaluations. *)
Lemma forall_ascii (P : ascii -> bool) :
  forallb (fun n => P (ascii_of_nat n)) (seq 0 256) = true -> forall x, P x = true.
Proof.
  intros H x. rewrite forallb_forall in H. rewrite <- (ascii_nat_embedding x). apply H.
  apply in_seq. pose proof (nat_ascii_bounded x). lia.
Qed.

Lemma fold_case_lower x : fold_case (lower_char x) = fold_case x.
Proof. apply Nat.eqb_eq. revert x. apply forall_ascii. vm_compute. reflexivity. Qed.

Lemma lower_char_fold x : lower_char (ascii_of_nat (fold_case x)) = lower_char x.
Proof. apply ascii_eqb_eq. revert x. apply forall_ascii. vm_compute. reflexivity. Qed.

Lemma lower_eq_fold_eq x y : lower_char x = lower_char y <-> fold_case x = fold_case y.
Proof.
  split; intros E.
  - rewrite <- (fold_case_lower x), E. apply fold_case_lower.
  - rewrite <- (lower_char_fold x), E. apply lower_char_fold.
Qed.

Lemma py_lower_eq_fold_eq a : forall b,
  py_lower a = py_lower b <->
  map (fun n => fold_case (ascii_of_nat n)) (codes_of_str a) = map (fun n => fold_case (ascii_of_nat n)) (codes_of_str b).
Proof.
  induction a as [|x a IH]; intros [|y b]; cbn [py_lower codes_of_str map]; try (split; discriminate); [tauto|].
  rewrite !ascii_nat_embedding.
  (* either way: the heads by lower_eq_fold_eq, the tails by the induction hypothesis *)
  split; intros [= E1 E2]; apply lower_eq_fold_eq in E1; apply IH in E2; congruence.
Qed.

Lemma s_eq_nocase_spec a b : s_eq_nocase a b = s_eq (py_lower a) (py_lower b).
Proof.
  unfold s_eq_nocase, s_eq.
  match goal with |- (if ?d then true else false) = _ => destruct d as [E|N] end;
    destruct (String.eqb_spec (py_lower a) (py_lower b)) as [L|L]; try reflexivity; exfalso.
  - apply L, py_lower_eq_fold_eq, E.
  - apply N, py_lower_eq_fold_eq, L.
Qed.

(* what simple_handler evaluates for the operator `name`: the hand-modelled handler for the special kinds, the
   table-driven one otherwise *)
Definition eval_named (name : string) (v : var) (c : json) : option bool :=
  match table_get choice_table name with
  | Some (KSpecial _) => eval_special name v c
  | Some k => eval_kind k v c
  | None => Some false
  end.

Definition var_opt (v : var) : option json := match v with VMissing => None | VVal j => Some j end.

(* the environment gives every timestamp text its instant, and only timestamps are in it *)
Definition ts_known (e : tsenv) (j : json) : Prop :=
  match j with
  | JStr s => match ts_lookup e s with
              | Some m => parse_rfc3339 s = TsOk m
              | None => parse_rfc3339 s = TsBad
              end
  | _ => True
  end.

(* ... so that the parser can be replaced by the lookup *)
Lemma ts_of_known e j : ts_known e j ->
  ts_of j = match j with JStr s => match ts_lookup e s with Some m => TsOk m | None => TsBad end | _ => TsBad end.
Proof. destruct j as [| | | |s| |]; cbn [ts_known ts_of]; try reflexivity. destruct (ts_lookup e s); intros ->; reflexivity. Qed.

(* the operators that compare the Variable with a value (all but And / Or / Not and the Is* tests), and the type
   of value each asks for, by its name *)
Definition value_ops : list string :=
  ["BooleanEquals"; "NumericEquals"; "NumericGreaterThan"; "NumericGreaterThanEquals"; "NumericLessThan";
   "NumericLessThanEquals"; "StringEquals"; "CaseInsensitiveStringEquals"; "StringGreaterThan";
   "StringGreaterThanEquals"; "StringLessThan"; "StringLessThanEquals"; "StringMatches"; "TimestampEquals";
   "TimestampGreaterThan"; "TimestampGreaterThanEquals"; "TimestampLessThan"; "TimestampLessThanEquals"].

Definition right_type (name : string) (x : json) : bool :=
  if prefixb "Numeric" name then is_num x
  else if prefixb "Boolean" name then match x with JBool _ => true | _ => false end
  else match x with JStr _ => true | _ => false end.

(* eval_named, sem_op, eval_special and right_type dispatch on the operator name by tests on closed strings;
   by_name computes those tests, for a given name. *)
Ltac by_name :=
  cbn [eval_named table_get choice_table sem_op eval_special right_type strip_prefix prefixb ascii_eqb
       String.eqb Ascii.eqb Bool.eqb andb].

(* the same for a whole family of names: what the specification says of "Numeric...", "String...", "Timestamp..." *)
Lemma sem_op_numeric e c v k : sem_op e ("Numeric" ++ rel_name c) v k =
  match v with
  | Some x => if is_num x && is_num k
              then match num_of x, num_of k with Some a, Some b => q_cmp (rel_name c) a b | _, _ => None end
              else Some false
  | None => Some false
  end.
Proof. destruct c; reflexivity. Qed.

Lemma sem_op_string e c v k : sem_op e ("String" ++ rel_name c) v k =
  match v, k with
  | Some (JStr a), JStr b =>
      match c with
      | Eq_ => Some (s_eq a b) | Lt_ => Some (s_lt a b) | Le_ => Some (s_lt a b || s_eq a b)
      | Gt_ => Some (s_lt b a) | Ge_ => Some (s_lt b a || s_eq a b) | Ne_ => None
      end
  | _, _ => Some false
  end.
Proof. destruct c; reflexivity. Qed.

Lemma sem_op_timestamp e c v k : sem_op e ("Timestamp" ++ rel_name c) v k =
  match v, k with
  | Some (JStr a), JStr b =>
      match ts_lookup e a, ts_lookup e b with
      | Some x, Some y => q_cmp (rel_name c) (inject_Z x) (inject_Z y)
      | _, _ => Some false
      end
  | _, _ => Some false
  end.
Proof. destruct c; reflexivity. Qed.

Lemma py_eq_bool_bool a b : py_eq_bool a (JBool b) = Bool.eqb a b.
Proof. destruct a, b; reflexivity. Qed.

(* A missing Variable reads as `false`: not a number, not a string, not a timestamp - but a Boolean, which is why
   the handler of BooleanEquals is guarded. *)
Lemma eval_kind_missing k c : (forall op, k <> KCmp op TBool) -> eval_kind k VMissing c <> Some true.
Proof.
  destruct k as [op []|op|op|op|k|h]; cbn [eval_kind var_failed var_json isnumber andb ts_of]; intros N; try discriminate.
  - destruct (N op eq_refl).
  - destruct (ts_of c); discriminate.
Qed.

(* the type of value that a comparison of kind k reads; a value of another type never matches *)
Fixpoint reads (k : choice_kind) (x : json) : bool :=
  match k with
  | KNum _ => isnumber x
  | KCmp _ TBool => match x with JBool _ => true | _ => false end
  | KCmp _ TStr | KCmpLower _ | KTs _ => match x with JStr _ => true | _ => false end
  | KGuard k' => reads k' x
  | KSpecial _ => true
  end.

Lemma eval_kind_wrong_type k x c : reads k x = false -> eval_kind k (VVal x) c <> Some true.
Proof.
  induction k as [op []|op|op|op|k IH|h]; cbn [reads eval_kind var_failed var_json]; try exact IH; intros H.
  - (* KCmp _ TBool *) destruct x; discriminate.
  - (* KCmp _ TStr *) destruct x; discriminate.
  - (* KCmpLower *) destruct x; discriminate.
  - (* KNum *) rewrite H. discriminate.
  - (* KTs: x is not a string, so ts_of x is TsBad, and no result of ts_of c makes that a match *)
    destruct x; try discriminate H; cbn [ts_of]; destruct (ts_of c); discriminate.
  - (* KSpecial *) discriminate H.
Qed.

Definition matches (input ctx : json) (r : json) : bool :=
  match choose input ctx r with CNext _ => true | _ => false end.

(* the sub-rule evaluated normally: matched or not (no escaping exception, inside the model) *)
Definition clean (input ctx : json) (r : json) : Prop :=
  match choose input ctx r with CNext _ | CNo => True | _ => False end.

(* a connective over sub-rules that evaluate normally matches, with the default Next, or does not, as its truth
   table says; so it evaluates normally itself and the laws nest to any depth *)
Lemma choose_and input ctx rs : Forall (clean input ctx) rs ->
  choose input ctx (JObj [("And", JArr rs)]) = if forallb (matches input ctx) rs then CNext (JBool true) else CNo.
Proof.
  intros Hc. cbn [choose lookup_variable obj_get String.eqb Ascii.eqb Bool.eqb truthy].
  induction Hc as [|r rs Hr Hrs IH]; [reflexivity|]. cbn [forallb]. unfold clean in Hr. unfold matches at 1.
  destruct (choose input ctx r); try contradiction; [exact IH|reflexivity].
Qed.

Lemma choose_or input ctx rs : Forall (clean input ctx) rs ->
  choose input ctx (JObj [("Or", JArr rs)]) = if existsb (matches input ctx) rs then CNext (JBool true) else CNo.
Proof.
  intros Hc. cbn [choose lookup_variable obj_get String.eqb Ascii.eqb Bool.eqb truthy].
  induction Hc as [|r rs Hr Hrs IH]; [reflexivity|]. cbn [existsb]. unfold clean in Hr. unfold matches at 1.
  destruct (choose input ctx r); try contradiction; [reflexivity|exact IH].
Qed.

Lemma choose_not input ctx r : clean input ctx r ->
  choose input ctx (JObj [("Not", r)]) = if negb (matches input ctx r) then CNext (JBool true) else CNo.
Proof.
  unfold clean, matches. cbn [choose lookup_variable obj_get String.eqb Ascii.eqb Bool.eqb truthy].
  destruct (choose input ctx r); try contradiction; reflexivity.
Qed.

(* a rule whose choose is one of these two values evaluates normally, and matches iff b *)
Lemma choose_bool input ctx r (b : bool) :
  choose input ctx r = (if b then CNext (JBool true) else CNo) -> matches input ctx r = b /\ clean input ctx r.
Proof. unfold matches, clean. intros ->. destruct b; split; constructor. Qed.

Lemma no_match_is_none input ctx rules :
  Forall (fun x => choose input ctx x = CNo) rules -> first_choice input ctx rules = CNo.
Proof.
  intros H. induction H as [|x l Hx Hl IH]; cbn [first_choice]; [reflexivity|]. rewrite Hx. exact IH.
Qed.

(* the Choice state with default paths: first matching rule, else Default, else NoChoiceMatched *)
Lemma choice_state_default_paths st data ctx c cs :
  obj_get st "InputPath" = None -> obj_get st "OutputPath" = None ->
  is_null data = false ->
  obj_get st "Choices" = Some (JArr (c :: cs)) ->
  choice_state st data ctx =
  match first_choice data ctx (c :: cs) with
  | COut => ChOut
  | CRaise => ChFail "States.Runtime"
  | CNext n => ChNext n data
  | CNo => match obj_get st "Default" with
           | Some d => if truthy d then ChNext d data else ChFail "States.NoChoiceMatched"
           | None => ChFail "States.NoChoiceMatched"
           end
  end.
Proof.
  intros Hi Ho Hn Hc. unfold choice_state, opt_path. rewrite Hi, Ho, Hc.
  unfold apply_path_m, apply_jsonpath_m. rewrite Hn. cbn [String.eqb Ascii.eqb Bool.eqb].
  destruct (first_choice data ctx (c :: cs)); rewrite ?Hn; try reflexivity.
  destruct (obj_get st "Default") as [d|]; [|reflexivity]. destruct (truthy d); reflexivity.
Qed.

Inductive Matches : list gtok -> string -> Prop :=
| M_nil : Matches [] ""
| M_lit a t s : Matches t s -> Matches (GLit a :: t) (String a s)
| M_star t s1 s2 : Matches t s2 -> Matches (GStar :: t) (s1 ++ s2).

Lemma glob_match_sound toks : forall s, glob_match toks s = true -> Matches toks s.
Proof.
  induction toks as [|[a|] t IH]; intros s H.
  - destruct s; [constructor|discriminate].
  - destruct s as [|b s]; [discriminate|]. cbn [glob_match] in H.
    apply andb_true_iff in H as [H1 H2]. apply ascii_eqb_eq in H1. subst. constructor. apply IH. exact H2.
  - cbn [glob_match] in H. induction s as [|b s IHs].
    + apply orb_true_iff in H as [H|H]; [|discriminate]. apply (M_star t "" ""). apply IH. exact H.
    + apply orb_true_iff in H as [H|H].
      * apply (M_star t "" (String b s)). apply IH. exact H.
      * specialize (IHs H). inversion IHs as [| |t' s1 s2 Hm]; subst.
        apply (M_star t (String b s1) s2). exact Hm.
Qed.

Lemma glob_match_complete toks s : Matches toks s -> glob_match toks s = true.
Proof.
  induction 1 as [|a t s Hm IH|t s1 s2 Hm IH].
  - reflexivity.
  - cbn [glob_match]. rewrite ascii_eqb_refl, IH. reflexivity.
  - cbn [glob_match]. induction s1 as [|b s1 IHs]; cbn [append].
    + destruct s2; rewrite IH; reflexivity.
    + rewrite IHs. apply orb_true_r.
Qed.

Theorem glob_match_iff toks s : glob_match toks s = true <-> Matches toks s.
Proof. split; [apply glob_match_sound|apply glob_match_complete]. Qed.

(* a pattern without '*' matches exactly itself: no other character is special *)
Fixpoint lits (s : string) : list gtok :=
  match s with EmptyString => [] | String a r => GLit a :: lits r end.

Lemma glob_tokens_no_star p : has_char star_char p = false -> glob_tokens p = lits p.
Proof.
  induction p as [|a p IH]; [reflexivity|]. cbn [has_char]. intros H.
  apply orb_false_iff in H as [Ha Hp]. specialize (IH Hp).
  cbn [glob_tokens lits]. rewrite Ha.
  destruct (ascii_eqb a backslash_char); [|rewrite IH; reflexivity].
  destruct p as [|b p]; [reflexivity|].
  cbn [has_char] in Hp. apply orb_false_iff in Hp as [Hb _]. rewrite Hb. rewrite IH. reflexivity.
Qed.

Lemma glob_lits p s : glob_match (lits p) s = String.eqb p s.
Proof.
  revert s. induction p as [|a p IH]; intros [|b s]; cbn [lits glob_match String.eqb]; try reflexivity.
  rewrite IH. reflexivity.
Qed.
