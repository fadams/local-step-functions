(* Model/Stores.v: a store is a mapping with unique keys (the laws of mget / mput / mdel), and the cached view is
   coherent: `CI` - every cache entry is one the server still vouches for or one whose invalidation is on its way -
   holds along every history (`CI_step`), so a read with no invalidation of its key pending is current. *)
From Coq Require Import List Arith Bool Lia Permutation.
Import ListNotations.
From LSF Require Import Stores.

Lemma existsb_eqb_in k l : existsb (Nat.eqb k) l = true <-> In k l.
Proof.
  rewrite existsb_exists. split; [intros (j & H & E); apply Nat.eqb_eq in E; subst; exact H|].
  intros H. exists k. split; [exact H|apply Nat.eqb_refl].
Qed.

Lemma mget_in k m : In k (map fst m) <-> mget k m <> None.
Proof.
  induction m as [|[j e] m IH]; cbn; [tauto|]. destruct (Nat.eqb_spec j k); [split; [discriminate|tauto]|]. rewrite IH. tauto.
Qed.

Lemma mget_mput_same k d m : mget k (mput k d m) = Some d.
Proof.
  induction m as [|[j e] m IH]; cbn; [rewrite Nat.eqb_refl; reflexivity|]. destruct (Nat.eqb_spec j k) as [->|N]; cbn; [rewrite Nat.eqb_refl; reflexivity|].
  destruct (Nat.eqb_spec j k); [contradiction|exact IH].
Qed.

Lemma mget_mput_other k j d m : j <> k -> mget j (mput k d m) = mget j m.
Proof.
  intros N. induction m as [|[i e] m IH]; cbn; [destruct (Nat.eqb_spec k j); [congruence|reflexivity]|].
  destruct (Nat.eqb_spec i k) as [->|]; cbn; [destruct (Nat.eqb_spec k j); [congruence|reflexivity]|].
  destruct (Nat.eqb i j); [reflexivity|exact IH].
Qed.

(* mdel takes out the first entry of the key: the only one when keys are unique *)
Lemma mget_mdel_same k m : NoDup (map fst m) -> mget k (mdel k m) = None.
Proof.
  induction m as [|[j e] m IH]; cbn; intros H; [reflexivity|]. inversion H as [|? ? Hj Hm]; subst. destruct (Nat.eqb_spec j k) as [->|N].
  - rewrite mget_in in Hj. destruct (mget k m); [exfalso; apply Hj; discriminate|reflexivity].
  - cbn. destruct (Nat.eqb_spec j k); [contradiction|]. apply IH. exact Hm.
Qed.

Lemma mget_mdel_other k j m : j <> k -> mget j (mdel k m) = mget j m.
Proof.
  intros N. induction m as [|[i e] m IH]; cbn; [reflexivity|]. destruct (Nat.eqb_spec i k) as [->|]; cbn.
  - destruct (Nat.eqb_spec k j); [congruence|reflexivity].
  - destruct (Nat.eqb i j); [reflexivity|exact IH].
Qed.

(* a new key goes to the end, as in a Python dict *)
Lemma mput_keys k d m : map fst (mput k d m) = if existsb (Nat.eqb k) (map fst m) then map fst m else map fst m ++ [k].
Proof.
  induction m as [|[j e] m IH]; cbn; [reflexivity|]. rewrite (Nat.eqb_sym k j). destruct (Nat.eqb_spec j k); cbn; [subst; reflexivity|].
  rewrite IH. destruct (existsb _ _); reflexivity.
Qed.

Lemma mput_nodup k d m : NoDup (map fst m) -> NoDup (map fst (mput k d m)).
Proof.
  intros H. rewrite mput_keys. destruct (existsb _ _) eqn:E; [exact H|].
  apply (NoDup_Add (Add_app k (map fst m) [])). rewrite app_nil_r, <- existsb_eqb_in, E. split; [exact H|discriminate].
Qed.

Lemma mdel_keys_sub k m j : In j (map fst (mdel k m)) -> In j (map fst m).
Proof.
  induction m as [|[i e] m IH]; cbn; [tauto|]. destruct (Nat.eqb i k); cbn; [tauto|]. intros [H|H]; [left; exact H|right; apply IH; exact H].
Qed.

Lemma mdel_nodup k m : NoDup (map fst m) -> NoDup (map fst (mdel k m)).
Proof.
  induction m as [|[j e] m IH]; cbn; intros H; [constructor|]. inversion H; subst. destruct (Nat.eqb j k); [assumption|]. cbn.
  constructor; [intros F; apply mdel_keys_sub in F; contradiction|apply IH; assumption].
Qed.

Definition swf (s : sstate) : Prop := NoDup (map fst (mem s)) /\ NoDup (map fst (disk s)).

Lemma kins_perm k l : Permutation (kins k l) (k :: l).
Proof. induction l as [|h r IH]; cbn; [reflexivity|]. destruct (Nat.leb k h); [reflexivity|]. rewrite IH. apply perm_swap. Qed.

Lemma ksort_perm l : Permutation (ksort l) l.
Proof. induction l as [|h r IH]; cbn; [constructor|]. fold (ksort r). rewrite kins_perm, IH. reflexivity. Qed.

Lemma cget_in k v m : cget k m = Some v -> In (k, v) m.
Proof.
  induction m as [|[j u] m IH]; cbn; [discriminate|]. destruct (Nat.eqb_spec j k) as [->|]; [|right; auto].
  intros H. inversion H. left. reflexivity.
Qed.

Lemma cget_cdel k j m : cget j (cdel k m) = if Nat.eqb j k then None else cget j m.
Proof.
  induction m as [|[i u] m IH]; cbn; [destruct (Nat.eqb j k); reflexivity|]. destruct (Nat.eqb_spec i k) as [->|N]; cbn; rewrite IH.
  - destruct (Nat.eqb_spec j k) as [->|]; [reflexivity|]. destruct (Nat.eqb_spec k j); [congruence|reflexivity].
  - destruct (Nat.eqb_spec i j) as [->|]; [|reflexivity]. destruct (Nat.eqb_spec j k); [contradiction|reflexivity].
Qed.

Lemma cget_app k a b : cget k (a ++ b) = match cget k a with Some v => Some v | None => cget k b end.
Proof. induction a as [|[j v] a IH]; cbn; [reflexivity|]. destruct (Nat.eqb j k); [reflexivity|exact IH]. Qed.

Lemma cget_cset k j v m : cget j (cset k v m) = if Nat.eqb j k then Some v else cget j m.
Proof.
  unfold cset. rewrite cget_app, cget_cdel. cbn. rewrite (Nat.eqb_sym k j). destruct (Nat.eqb j k); [reflexivity|]. destruct (cget j m); reflexivity.
Qed.

Lemma in_cdel k m j u : In (j, u) (cdel k m) <-> In (j, u) m /\ j <> k.
Proof.
  induction m as [|[i v] m IH]; cbn; [tauto|]. destruct (Nat.eqb_spec i k); cbn; rewrite IH; intuition congruence.
Qed.

Lemma in_cset k v m j u : In (j, u) (cset k v m) <-> In (j, u) m /\ j <> k \/ (j, u) = (k, v).
Proof. unfold cset. rewrite in_app_iff, in_cdel. cbn. intuition congruence. Qed.

Lemma in_trim c l (e : key * cval) : In e (trim c l) -> In e l.
Proof. unfold trim. destruct (Nat.ltb c (length l)), l; cbn; tauto. Qed.

Lemma in_remove_key k l j : In j (remove_key k l) <-> In j l /\ j <> k.
Proof.
  induction l as [|i l IH]; cbn; [tauto|]. destruct (Nat.eqb_spec i k); cbn; rewrite IH; intuition congruence.
Qed.

(* a read by this client (GET or EXISTS) makes the server remember the key and forget none *)
Lemma tracked_read k l j : In j l -> In j (k :: remove_key k l).
Proof. intros H. destruct (Nat.eq_dec j k) as [->|N]; [left; reflexivity|right; apply in_remove_key; split; assumption]. Qed.

Definition server_val_eq (w w' : cworld) (j : key) : Prop := server_val w' j = server_val w j.

(* the server's keyspace is a mapping: a write (0 deletes) sets the value of its key and of no other *)
Lemma server_val_write w k v j : server_val (fst (cstep w (CWrite k v))) j = if Nat.eqb j k then v else server_val w j.
Proof.
  unfold server_val. cbn [cstep]. destruct (Nat.eqb_spec v 0) as [->|N]; cbn [andb]; [destruct (cget k (kv w)) eqn:E|].
  - destruct (existsb _ _); cbn [fst kv]; rewrite cget_cdel; destruct (Nat.eqb j k); reflexivity.
  - cbn [fst]. destruct (Nat.eqb_spec j k) as [->|]; [rewrite E|]; reflexivity.
  - destruct (existsb _ _); cbn [fst kv]; rewrite cget_cset; destruct (Nat.eqb j k); reflexivity.
Qed.

(* every entry of the cache is one the server still vouches for, or one whose invalidation is already on its way *)
Definition CI (w : cworld) : Prop :=
  forall k v, In (k, v) (cache w) -> In k (pendingq w) \/ (In k (tracked w) /\ server_val w k = v).

Lemma CI_init c : CI (cinit c).
Proof. intros k v []. Qed.

Theorem CI_step w o : CI w -> CI (fst (cstep w o)).
Proof.
  intros I. destruct o as [k|k v| |k]; cbn [cstep].
  - (* a hit only moves the entry to the end; a miss stores the server's value and has the key tracked *)
    destruct (cget k (cache w)) as [v|] eqn:E; intros j u H; cbn [fst cache pendingq tracked] in *.
    + apply in_cset in H as [(H & _)|H]; [|inversion H; subst; apply cget_in in E]; apply I; assumption.
    + apply in_trim, in_cset in H as [(H & _)|H].
      * destruct (I j u H) as [P|(T & S)]; [left; exact P|right; split; [apply tracked_read; exact T|exact S]].
      * inversion H; subst. right. split; [left; reflexivity|reflexivity].
  - (* an entry of k itself becomes pending if k was tracked, and was pending already if not; no other key changes its value *)
    generalize (server_val_write w k v). cbn [cstep]. destruct (Nat.eqb v 0 && _); [intros _; exact I|].
    destruct (existsb (Nat.eqb k) (tracked w)) eqn:T; cbn [fst]; intros Sv j u H; cbn [cache pendingq tracked].
    + (* k was tracked *) destruct (I j u H) as [P|(Tj & S)]; [left; apply in_app_iff; left; exact P|].
      rewrite Sv. destruct (Nat.eqb_spec j k) as [->|N]; [left; apply in_app_iff; right; left; reflexivity|].
      right. split; [apply in_remove_key; split; assumption|exact S].
    + (* k was not tracked *) destruct (I j u H) as [P|(Tj & S)]; [left; exact P|].
      rewrite Sv. destruct (Nat.eqb_spec j k) as [->|N]; [apply existsb_eqb_in in Tj; congruence|]. right. split; assumption.
  - destruct (pendingq w) as [|k r] eqn:P; [exact I|]. intros j u H. cbn [fst cache pendingq tracked] in *.
    apply in_cdel in H as (H & N). destruct (I j u H) as [Q|Q]; [left|right; exact Q].
    rewrite P in Q. destruct Q as [Q|Q]; [congruence|exact Q].
  - intros j u H. destruct (I j u H) as [P|(T & S)]; [left; exact P|right; split; [apply tracked_read; exact T|exact S]].
Qed.

Fixpoint crun (w : cworld) (l : list cop) : cworld := match l with [] => w | o :: r => crun (fst (cstep w o)) r end.

Lemma CI_run l : forall w, CI w -> CI (crun w l).
Proof. induction l as [|o l IH]; intros w H; cbn; [exact H|]. apply IH. apply CI_step. exact H. Qed.

(* a cached view of k returns the server's current value unless an invalidation of k itself is still to be delivered *)
Theorem cached_read_current w k : CI w -> ~ In k (pendingq w) -> snd (cstep w (CRead k)) = Some (server_val w k).
Proof.
  intros I P. cbn [cstep]. destruct (cget k (cache w)) as [v|] eqn:E; cbn; [|reflexivity].
  destruct (I k v (cget_in _ _ _ E)) as [F|(_ & S)]; [contradiction|]. rewrite S. reflexivity.
Qed.

Lemma cdel_length k m : length (cdel k m) <= length m.
Proof. induction m as [|[j u] m IH]; cbn; [lia|]. destruct (Nat.eqb j k); cbn; lia. Qed.

Lemma cset_length k v m : length (cset k v m) = S (length (cdel k m)).
Proof. unfold cset. rewrite app_length. cbn. lia. Qed.

Lemma cdel_length_lt k v m : cget k m = Some v -> length (cdel k m) < length m.
Proof.
  induction m as [|[j u] m IH]; cbn; [discriminate|]. destruct (Nat.eqb j k); intros H.
  - pose proof (cdel_length k m). lia.
  - cbn. specialize (IH H). lia.
Qed.

Lemma trim_length c (l : list (key * cval)) : length l <= S c -> length (trim c l) <= c.
Proof. unfold trim. destruct (Nat.ltb_spec c (length l)), l; cbn in *; lia. Qed.
